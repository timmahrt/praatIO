(* Tier/CropProofs.v -- C06: crop keeps exactly the annotation inside the
   window, per mode; span and rebasing; totality on well-formed tiers. *)
From PraatIO Require Import Tier.TierModel Tier.CtorProofs.

Definition crop_spec_ents (a b : Z) (mode : cropmode) (l : list interval) : list interval :=
  match mode with
  | Strict => filter (insideb a b) l
  | Lax => filter (overlapsb a b) l
  | Truncated => map (clip a b) (filter (overlapsb a b) l)
  end.

(* amount subtracted when rebasing: the window start, or an earlier-starting
   (lax) first interval *)
Definition rebase_origin (a : Z) (l : list interval) : Z :=
  match l with i0 :: _ => Z.min a (istart i0) | [] => a end.

Definition crop_spec (t : itier) (a b : Z) (mode : cropmode) (rebase : bool) : res itier :=
  if b <=? a then Err ArgumentError else
  let l := crop_spec_ents a b mode (ients t) in
  if rebase then
    let l' := map (shift (- rebase_origin a l)) l in
    Ok (mkIT (iname t) l' (hull_min l' 0) (hull_max l' (b - a)))
  else Ok (mkIT (iname t) l (hull_min l a) (hull_max l b)).

Definition crop_p_spec (t : ptier) (a b : Z) (rebase : bool) : res ptier :=
  if b <=? a then Err ArgumentError else
  let l := filter (in_windowb a b) (pents t) in
  if rebase then Ok (mkPT (pname t) (map (pshift (- a)) l) 0 (b - a))
  else Ok (mkPT (pname t) l a b).

(* One case analysis for the three modes.  The tests of the source overlap;
   written over the four comparisons that fix where the entry lies relative to
   the window, the other comparisons are their negations, except the last test
   (s <= a and b <= e), which is only reached when the entry sticks out on
   both sides. *)
Lemma giii1_spec a b mode i : pos i ->
  giii1 a b mode i =
  match mode with
  | Strict => if insideb a b i then Some i else None
  | Lax => if overlapsb a b i then Some i else None
  | Truncated => if overlapsb a b i then Some (clip a b i) else None
  end.
Proof.
  unfold pos, giii1, insideb, overlapsb, clip. intros Hp. rewrite !Z.ltb_antisym.
  destruct (Z.leb_spec (iend i) a), (Z.leb_spec b (istart i)),
           (Z.leb_spec a (istart i)), (Z.leb_spec (iend i) b); try lia; cbn [andb orb negb].
  all: try rewrite (proj2 (Z.leb_le (istart i) a)), (proj2 (Z.leb_le b (iend i))) by lia.
  all: destruct mode; try reflexivity; destruct i; simpl in *; do 2 f_equal; lia.
Qed.

Lemma map_id' {A} (l : list A) : map (fun x => x) l = l.
Proof. apply map_id. Qed.

Theorem giii_spec a b mode l :
  Forall pos l -> giii a b mode l = crop_spec_ents a b mode l.
Proof.
  intros Hp. unfold giii.
  destruct mode; simpl; [rewrite <- (map_id' (filter _ l))..|];
    apply (filter_map_map_filter_on pos _ _ _ _ Hp); intros i Hi.
  - exact (giii1_spec a b Strict i Hi).
  - exact (giii1_spec a b Lax i Hi).
  - exact (giii1_spec a b Truncated i Hi).
Qed.

Lemma crop_spec_ents_wf a b mode l : a < b -> wf_ients l -> wf_ients (crop_spec_ents a b mode l).
Proof.
  intros Hab Hw. destruct mode; simpl; try (apply wf_ients_filter, Hw).
  apply wf_ients_map; [| |apply wf_ients_filter, Hw].
  - unfold before, clip. simpl. intros; lia.
  - intros i Hi. apply filter_In in Hi as [_ Hi]. unfold pos, overlapsb, clip in *. simpl. lia.
Qed.

Lemma crop_spec_ents_stripped a b mode l : labels_stripped l -> labels_stripped (crop_spec_ents a b mode l).
Proof.
  intro H. destruct mode; simpl; try (apply labels_stripped_filter, H).
  apply labels_stripped_map; [reflexivity|]. apply labels_stripped_filter, H.
Qed.

Theorem crop_i_spec t a b mode rebase :
  wf_itier t -> crop_i t a b mode rebase = crop_spec t a b mode rebase.
Proof.
  intros (Hw & Hs & Hl). unfold crop_i, crop_spec.
  destruct (Z.leb_spec b a) as [|Hab]; [reflexivity|].
  rewrite (giii_spec a b mode (ients t) (proj1 Hw)).
  set (l := crop_spec_ents a b mode (ients t)).
  assert (wf_ients l) as Hwl by (apply crop_spec_ents_wf; assumption).
  assert (labels_stripped l) as Hsl by (apply crop_spec_ents_stripped; assumption).
  destruct rebase.
  - assert ((match l with i0 :: _ => if istart i0 <? a then istart i0 else a | [] => a end)
            = rebase_origin a l) as ->.
    { unfold rebase_origin. destruct l as [|i0 l']; [reflexivity|].
      destruct (Z.ltb_spec (istart i0) a); lia. }
    apply new_itier_hull; [apply wf_ients_shift, Hwl|].
    apply labels_stripped_map; [reflexivity|exact Hsl].
  - apply new_itier_hull; assumption.
Qed.

Theorem crop_trunc_pointwise a b l x :
  lab_at (crop_spec_ents a b Truncated l) x
  = if (a <=? x) && (x <? b) then lab_at l x else None.
Proof.
  simpl. rewrite <- flat_map_singleton_filter.
  rewrite (lab_at_flat_map_pointwise _ l (negb ((a <=? x) && (x <? b))) x x).
  - now destruct ((a <=? x) && (x <? b)).
  - intros i _. rewrite lab_at_opt, lab_at_one, mask_lab_if.
    unfold overlapsb, coversb, clip. simpl. f_equal. lia.
Qed.

Theorem crop_strict_members a b l i :
  In i (crop_spec_ents a b Strict l) <-> In i l /\ inside a b i.
Proof. simpl. rewrite filter_In, insideb_iff. reflexivity. Qed.

Lemma crop_ents_in_window a b mode l :
  mode <> Lax -> Forall (in_span a b) (crop_spec_ents a b mode l).
Proof.
  intro Hm. apply Forall_forall. intros i Hi. destruct mode; [|congruence|].
  - apply crop_strict_members in Hi as [_ H]. exact H.
  - simpl in Hi. apply in_map_iff in Hi as (j & <- & Hj). apply filter_In in Hj as [_ Hj].
    unfold overlapsb in Hj. unfold in_span, clip; simpl. lia.
Qed.

Theorem crop_span_norebase t a b mode t' :
  wf_itier t -> mode <> Lax -> crop_i t a b mode false = Ok t' -> imin t' = a /\ imax t' = b.
Proof.
  intros Hwf Hm. rewrite (crop_i_spec _ _ _ _ _ Hwf). unfold crop_spec.
  destruct (b <=? a); [discriminate|]. intros [= <-]. simpl.
  pose proof (crop_ents_in_window a b mode (ients t) Hm) as H.
  exact (hull_in_span _ _ _ H).
Qed.

(* lax: widened just enough *)
Theorem crop_span_lax t a b t' :
  wf_itier t -> crop_i t a b Lax false = Ok t' ->
  imin t' <= a /\ b <= imax t' /\ Forall (in_span (imin t') (imax t')) (ients t') /\
  (imin t' = a \/ exists i, In i (ients t') /\ imin t' = istart i) /\
  (imax t' = b \/ exists i, In i (ients t') /\ imax t' = iend i).
Proof.
  intros Hwf. rewrite (crop_i_spec _ _ _ _ _ Hwf). unfold crop_spec.
  destruct (b <=? a); [discriminate|]. intros [= <-]. simpl.
  set (l := filter (overlapsb a b) (ients t)).
  destruct (hull_min_spec l a) as (A1 & A2 & A3). destruct (hull_max_spec l b) as (B1 & B2 & B3).
  repeat split; auto.
  rewrite Forall_forall in *. intros i Hi. split; auto.
Qed.

Theorem crop_rebase_window t a b mode t' :
  wf_itier t -> mode <> Lax -> crop_i t a b mode true = Ok t' ->
  ients t' = map (shift (- a)) (crop_spec_ents a b mode (ients t)) /\ imin t' = 0 /\ imax t' = b - a.
Proof.
  intros Hwf Hm. rewrite (crop_i_spec _ _ _ _ _ Hwf). unfold crop_spec.
  destruct (b <=? a); [discriminate|]. intros [= <-]. simpl.
  pose proof (crop_ents_in_window a b mode (ients t) Hm) as H.
  set (l := crop_spec_ents a b mode (ients t)) in *.
  assert (rebase_origin a l = a) as -> by (destruct H as [|i0 l' [H _] _]; simpl; lia).
  assert (Forall (in_span 0 (b - a)) (map (shift (- a)) l)) as H'
      by (apply Forall_map; eapply Forall_impl; [|exact H]; unfold in_span, shift; simpl; intros; lia).
  split; [reflexivity|exact (hull_in_span _ _ _ H')].
Qed.

Lemma crop_i_wf t a b mode rebase t' : crop_i t a b mode rebase = Ok t' -> wf_itier t'.
Proof. unfold crop_i. destruct (b <=? a); [discriminate|]. destruct rebase; apply new_itier_wf. Qed.

Theorem crop_total t a b mode rebase :
  wf_itier t -> a < b -> exists t', crop_i t a b mode rebase = Ok t' /\ wf_itier t'.
Proof.
  intros Hwf Hab. destruct (crop_i t a b mode rebase) as [t'|e] eqn:E.
  - exists t'. split; [reflexivity|exact (crop_i_wf _ _ _ _ _ _ E)].
  - rewrite (crop_i_spec _ _ _ _ _ Hwf) in E. unfold crop_spec in E.
    destruct (Z.leb_spec b a); [lia|]. destruct rebase; discriminate.
Qed.

(* what the point-tier constructor leaves as it is: it re-sorts by the tuple
   order (time, label) and strips; nothing is asked of the span *)
Definition wf_ptier_strict (t : ptier) : Prop :=
  StronglySorted (lebP pleb) (pents t) /\ Forall (fun p => stripped (plabel p)) (pents t).

Lemma pleb_shift d p q : pleb (pshift d p) (pshift d q) = pleb p q.
Proof.
  unfold pleb, pcmp, pshift. simpl.
  now rewrite (Z.add_comm (ptime p)), (Z.add_comm (ptime q)), Z.add_compare_mono_l.
Qed.

Lemma in_window_bounds a b l p : In p (filter (in_windowb a b) l) -> a <= ptime p <= b.
Proof. rewrite filter_In. unfold in_windowb. lia. Qed.

Lemma in_window_shift_bounds a b l p :
  In p (map (pshift (- a)) (filter (in_windowb a b) l)) -> 0 <= ptime p <= b - a.
Proof. rewrite in_map_iff. intros (q & <- & Hq). apply in_window_bounds in Hq. simpl. lia. Qed.

Theorem crop_p_spec_ok t a b rebase :
  wf_ptier_strict t -> crop_p t a b rebase = crop_p_spec t a b rebase.
Proof.
  intros [Hs Hl]. unfold crop_p, crop_p_spec. destruct (Z.leb_spec b a); [reflexivity|].
  apply (StronglySorted_filter _ (in_windowb a b)) in Hs. apply (incl_Forall (incl_filter (in_windowb a b) _)) in Hl.
  destruct rebase.
  - rewrite new_ptier_bounded, homog_p_id; [reflexivity| | |lia|apply in_window_shift_bounds].
    + apply (StronglySorted_map (lebP pleb)), Hs. unfold lebP. intros p q. now rewrite pleb_shift.
    + apply Forall_map. exact Hl.
  - rewrite new_ptier_bounded, homog_p_id; [reflexivity|exact Hs|exact Hl|lia|apply in_window_bounds].
Qed.

Theorem crop_p_span t a b r x :
  crop_p t a b r = Ok x ->
  pmin x = (if r then 0 else a) /\ pmax x = (if r then b - a else b).
Proof.
  unfold crop_p. destruct (Z.leb_spec b a); [discriminate|].
  destruct r; intro E; (eapply new_ptier_span; [| |exact E]; [lia|]).
  - apply in_window_shift_bounds.
  - apply in_window_bounds.
Qed.

Lemma crop_i_name t a b m r t' : crop_i t a b m r = Ok t' -> iname t' = iname t.
Proof. unfold crop_i. destruct (b <=? a); [discriminate|]. destruct r; apply new_itier_name. Qed.

Lemma crop_p_name t a b r t' : crop_p t a b r = Ok t' -> pname t' = pname t.
Proof. unfold crop_p. destruct (b <=? a); [discriminate|]. destruct r; apply new_ptier_name. Qed.

Example crop_example_tier : itier :=
  mkIT [97%N] [mkI 0 2 [120%N]; mkI 2 5 [121%N]; mkI 7 9 []] 0 10.

Example crop_example_wf : wf_itier crop_example_tier.
Proof. apply wf_itierb_spec. vm_compute. reflexivity. Qed.

Example crop_example_run :
  crop_i crop_example_tier 1 8 Truncated true
  = Ok (mkIT [97%N] [mkI 0 1 [120%N]; mkI 1 4 [121%N]; mkI 6 7 []] 0 7).
Proof. vm_compute. reflexivity. Qed.
