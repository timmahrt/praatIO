(* Tier/EraseProofs.v -- C07: eraseRegion blanks exactly the region and
   shrinks time by exactly its length.  The source works in two passes, taken
   here entry by entry: keep1 is what is left of an entry outside the region,
   shrink1 closes the gap, es1 is both. *)
From PraatIO Require Import Tier.TierModel Tier.CtorProofs.

Definition keep1 (a b : Z) (mode : erasemode) (i : interval) : list interval :=
  match mode with
  | ETruncate => cut_out a b i
  | _ => if overlapsb a b i then [] else [i]
  end.

Lemma erase_keep_ok a b mode l :
  (mode = EError -> forall i, In i l -> ~ overlaps a b i) ->
  erase_keep a b mode l = Ok (flat_map (keep1 a b mode) l).
Proof.
  intro Herr. destruct mode; simpl; [reflexivity| |].
  - clear Herr. f_equal. induction l as [|i l IH]; simpl; [reflexivity|].
    destruct (overlapsb a b i); simpl; congruence.
  - destruct (existsb (overlapsb a b) l) eqn:E.
    + apply existsb_overlaps in E as (i & Hi & Ho). destruct (Herr eq_refl i Hi Ho).
    + f_equal. induction l as [|i l IH]; [reflexivity|]. simpl in *.
      apply orb_false_iff in E as [-> E]. simpl. f_equal. apply IH; auto.
Qed.

Lemma keep1_clear a b mode i : ~ overlaps a b i -> keep1 a b mode i = [i].
Proof.
  rewrite <- overlapsb_iff. intro H. apply not_true_is_false in H.
  unfold keep1, cut_out. rewrite H. now destruct mode.
Qed.

Lemma cut_out_clear a b i j : In j (cut_out a b i) -> ~ overlaps a b j.
Proof.
  unfold cut_out. destruct (overlapsb a b i) eqn:E.
  - intro H. apply in_app_or in H as [H|H]; [destruct (istart i <? a)|destruct (b <? iend i)];
      simpl in H; try contradiction; destruct H as [<-|[]]; unfold overlaps; simpl; lia.
  - intros [<-|[]]. rewrite <- overlapsb_iff. congruence.
Qed.

Lemma keep1_labels a b mode i j : In j (keep1 a b mode i) -> ilabel j = ilabel i.
Proof.
  destruct mode; simpl.
  - unfold cut_out. destruct (overlapsb a b i).
    + destruct (istart i <? a), (b <? iend i); simpl; intuition (subst; reflexivity).
    + intros [<-|[]]; reflexivity.
  - destruct (overlapsb a b i); [intros []|intros [<-|[]]; reflexivity].
  - destruct (overlapsb a b i); [intros []|intros [<-|[]]; reflexivity].
Qed.

Lemma cut_out_lab a b i x :
  lab_at (cut_out a b i) x = if (a <=? x) && (x <? b) then None else lab_at [i] x.
Proof.
  rewrite lab_at_one, mask_lab_if. unfold cut_out. destruct (overlapsb a b i) eqn:E.
  - rewrite lab_at_app, !lab_at_opt, orelse_lab_if. unfold overlapsb, coversb in *. simpl. f_equal. lia.
  - rewrite lab_at_one. unfold overlapsb, coversb in *. f_equal. lia.
Qed.

Theorem cut_out_pointwise a b l x :
  lab_at (flat_map (cut_out a b) l) x = if (a <=? x) && (x <? b) then None else lab_at l x.
Proof.
  apply lab_at_flat_map_pointwise. intros i _. apply cut_out_lab.
Qed.

Lemma wf_pair i j : pos i -> pos j -> before i j -> wf_ients [i; j].
Proof.
  intros Hi Hj Hb. apply wf_ients_cons. split; [exact Hi|]. split; [constructor; [exact Hb|constructor]|].
  apply wf_singleton, Hj.
Qed.

Lemma keep1_pieces_ok a b mode : a < b -> pieces_ok (fun x => x) (keep1 a b mode).
Proof.
  intros Hab i Hp. unfold keep1, cut_out. destruct (overlapsb a b i) eqn:E.
  2: { destruct mode; apply pieces_single; (exact Hp || split; lia). }
  destruct mode; [|apply pieces_nil..]. apply overlapsb_iff in E as [E1 E2]. unfold pos in Hp.
  destruct (Z.ltb_spec (istart i) a), (Z.ltb_spec b (iend i)); simpl.
  - split; [apply wf_pair; unfold pos, before; simpl; lia|repeat constructor; simpl; lia].
  - apply pieces_single; [unfold pos|split]; simpl; lia.
  - apply pieces_single; [unfold pos|split]; simpl; lia.
  - apply pieces_nil.
Qed.

Lemma shrink1_before a b i : iend i <= a -> shrink1 a b i = [i].
Proof. intro H. unfold shrink1. now destruct (Z.leb_spec (iend i) a); [|lia]. Qed.

Lemma shrink1_after a b i : a < b -> pos i -> b <= istart i -> shrink1 a b i = [shift (- (b - a)) i].
Proof.
  unfold pos, shrink1. intros Hab Hp H. destruct (Z.leb_spec (iend i) a); [lia|].
  now destruct (Z.leb_spec b (istart i)); [|lia].
Qed.

Lemma shrink1_labels a b i j : In j (shrink1 a b i) -> ilabel j = ilabel i.
Proof.
  unfold shrink1. destruct (iend i <=? a); [intros [<-|[]]; reflexivity|].
  destruct (b <=? istart i); [intros [<-|[]]; reflexivity|intros []].
Qed.

(* an entry clear of the region, seen after the shrink: the time axis is cut at a *)
Lemma shrink1_lab a b j x : a < b -> ~ overlaps a b j ->
  lab_at (shrink1 a b j) x = lab_at [j] (if x <? a then x else x + (b - a)).
Proof.
  unfold overlaps, shrink1. intros Hab H. rewrite lab_at_one.
  destruct (Z.leb_spec (iend j) a); [|destruct (Z.leb_spec b (istart j)); [|lia]];
    rewrite lab_at_one; unfold coversb; simpl; f_equal; destruct (Z.ltb_spec x a); lia.
Qed.

(* the time map of eraseRegion with shrinking, the tau of pieces_ok: times up to a stay, [a, b] collapses to a,
   later times move by -(b - a) *)
Definition tau_shrink (a b x : Z) : Z := if x <=? a then x else if x <=? b then a else x - (b - a).

Lemma tau_shrink_le a b x : x <= a -> tau_shrink a b x = x.
Proof. intro H. unfold tau_shrink. now destruct (Z.leb_spec x a); [|lia]. Qed.

Lemma tau_shrink_ge a b x : a < b -> b <= x -> tau_shrink a b x = x - (b - a).
Proof. intros Hab H. unfold tau_shrink. destruct (Z.leb_spec x a), (Z.leb_spec x b); lia. Qed.

Lemma tau_shrink_mono a b x y : x <= y -> tau_shrink a b x <= tau_shrink a b y.
Proof.
  intros. unfold tau_shrink.
  destruct (Z.leb_spec x a), (Z.leb_spec x b), (Z.leb_spec y a), (Z.leb_spec y b); lia.
Qed.

Lemma shrink1_pieces_ok a b : a < b -> pieces_ok (tau_shrink a b) (shrink1 a b).
Proof.
  intros Hab i Hp. pose proof Hp as Hp'. unfold pos in Hp'.
  destruct (Z.le_gt_cases (iend i) a); [|destruct (Z.le_gt_cases b (istart i))].
  - rewrite shrink1_before, !tau_shrink_le by lia. apply pieces_single; [exact Hp|split; lia].
  - rewrite shrink1_after, !tau_shrink_ge by (assumption || lia).
    apply pieces_single; [unfold pos|split]; simpl; lia.
  - unfold shrink1. destruct (Z.leb_spec (iend i) a); [lia|]. destruct (Z.leb_spec b (istart i)); [lia|].
    apply pieces_nil.
Qed.

Definition es1 (a b : Z) (mode : erasemode) (i : interval) : list interval :=
  flat_map (shrink1 a b) (keep1 a b mode i).

Lemma es1_pieces_ok a b mode : a < b -> pieces_ok (tau_shrink a b) (es1 a b mode).
Proof.
  intro Hab. exact (pieces_ok_comp (fun x => x) _ _ _ (tau_shrink_mono a b)
                      (keep1_pieces_ok a b mode Hab) (shrink1_pieces_ok a b Hab)).
Qed.

Lemma es1_labels a b mode i j : In j (es1 a b mode i) -> ilabel j = ilabel i.
Proof.
  unfold es1. intro H. apply in_flat_map in H as (k & Hk & Hj).
  rewrite (shrink1_labels _ _ _ _ Hj). eapply keep1_labels, Hk.
Qed.

Lemma es1_before a b mode i : iend i <= a -> es1 a b mode i = [i].
Proof.
  intro H. unfold es1. rewrite keep1_clear by (unfold overlaps; lia). simpl.
  now rewrite shrink1_before by exact H.
Qed.

Lemma es1_after a b mode i : a < b -> pos i -> b <= istart i -> es1 a b mode i = [shift (- (b - a)) i].
Proof.
  intros Hab Hp H. unfold es1. rewrite keep1_clear by (unfold overlaps; lia). simpl.
  now rewrite shrink1_after by assumption.
Qed.

Lemma es1_straddle a b i : a < b -> istart i < a -> b < iend i ->
  es1 a b ETruncate i = [mkI (istart i) a (ilabel i); mkI a (iend i - (b - a)) (ilabel i)].
Proof.
  intros Hab Hs He. unfold es1, keep1, cut_out.
  rewrite (proj2 (overlapsb_iff a b i)) by (unfold overlaps; lia).
  rewrite (proj2 (Z.ltb_lt _ _) Hs), (proj2 (Z.ltb_lt _ _) He). simpl.
  rewrite shrink1_before, shrink1_after by (assumption || unfold pos; simpl; lia).
  unfold shift. simpl. repeat f_equal; lia.
Qed.

Lemma join_at_shape a l :
  join_at a l = l \/
  exists l1 i j l2, l = l1 ++ i :: j :: l2 /\ iend i = a /\ istart j = a /\ ilabel i = ilabel j
                    /\ join_at a l = l1 ++ mkI (istart i) (iend j) (ilabel i) :: l2.
Proof.
  induction l as [|i l IH]; [left; reflexivity|].
  destruct l as [|j l']; [left; reflexivity|]. cbn [join_at].
  destruct ((iend i =? a) && (istart j =? a) && text_eqb (ilabel i) (ilabel j)) eqn:E.
  - apply andb_true_iff in E as [E1 E3]. apply andb_true_iff in E1 as [E1 E2].
    apply text_eqb_eq in E3. right. exists [], i, j, l'. repeat split; auto; lia.
  - destruct IH as [IH|(l1 & i' & j' & l2 & E1 & E2 & E3 & E4 & E5)].
    + left. change (i :: join_at a (j :: l') = i :: j :: l'). now rewrite IH.
    + right. exists (i :: l1), i', j', l2. repeat split; auto.
      * simpl. now rewrite E1.
      * change (i :: join_at a (j :: l') = (i :: l1) ++ mkI (istart i') (iend j') (ilabel i') :: l2).
        now rewrite E5.
Qed.

Lemma join_at_lab a l x : Forall pos l -> lab_at (join_at a l) x = lab_at l x.
Proof.
  intro Hp. destruct (join_at_shape a l) as [->|(l1 & i & j & l2 & -> & E1 & E2 & E3 & ->)]; [reflexivity|].
  apply Forall_app in Hp as [_ Hp]. inversion Hp as [|? ? Pi Hp']; subst. inversion Hp' as [|? ? Pj _]; subst.
  rewrite !lab_at_app. f_equal.
  rewrite lab_at_cons, (lab_at_cons i), (lab_at_cons j), !lab_at_one, <- E3, orelse_assoc, orelse_lab_if.
  unfold coversb, pos in *. simpl. do 2 f_equal. lia.
Qed.

Lemma join_at_members a l k :
  In k l -> iend k <> a -> istart k <> a -> In k (join_at a l).
Proof.
  intros Hk He Hs. destruct (join_at_shape a l) as [->|(l1 & i & j & l2 & -> & E1 & E2 & _ & ->)]; [exact Hk|].
  apply in_app_or in Hk as [Hk|[<-|[<-|Hk]]]; try contradiction; apply in_or_app; [left|right; right]; exact Hk.
Qed.

Lemma join_at_skip a k l : iend k <> a -> l <> [] -> join_at a (k :: l) = k :: join_at a l.
Proof.
  intros Hk Hl. destruct l as [|j l]; [congruence|]. cbn [join_at].
  destruct (Z.eqb_spec (iend k) a); [contradiction|reflexivity].
Qed.

Lemma join_at_wf_itier a name l mn mx :
  wf_itier (mkIT name l mn mx) -> wf_itier (mkIT name (join_at a l) mn mx).
Proof.
  intro H. destruct (join_at_shape a l) as [->|(l1 & i & j & l2 & -> & E1 & E2 & E3 & ->)]; [exact H|].
  destruct H as (Hw & Hs & Hl). simpl in *.
  apply wf_ients_app_inv in Hw as (W1 & W2 & W3).
  apply wf_ients_cons in W2 as (Pi & Bi & W2). apply wf_ients_cons in W2 as (Pj & Bj & W2).
  apply Forall_app in Hs as [S1 S2]. inversion S2 as [|? ? Si S3]; subst. inversion S3 as [|? ? Sj S4]; subst.
  apply Forall_app in Hl as [L1 L2]. inversion L2 as [|? ? Li L3]; subst. inversion L3 as [|? ? _ L4]; subst.
  unfold pos, before, in_span in *. split; [|split].
  - apply wf_ients_app; [exact W1| |].
    + apply wf_ients_cons. split; [unfold pos; simpl; lia|]. split; [|exact W2].
      eapply Forall_impl; [|exact Bj]. unfold before; simpl. auto.
    + intros x y Hx [<-|Hy]; [exact (W3 x i Hx (or_introl eq_refl))|].
      apply W3; [exact Hx|right; right; exact Hy].
  - apply Forall_app; split; [exact S1|]. constructor; [unfold in_span; simpl; lia|exact S4].
  - apply Forall_app; split; [exact L1|]. constructor; assumption.
Qed.

Definition erase_result_ents (a b : Z) (mode : erasemode) (doShrink : bool) (l : list interval) :=
  if doShrink then join_at a (flat_map (es1 a b mode) l) else flat_map (keep1 a b mode) l.

(* no shrinking: no condition on where the region lies *)
Theorem erase_i_keep_ok t a b mode :
  wf_itier t -> a < b ->
  (mode = EError -> forall i, In i (ients t) -> ~ overlaps a b i) ->
  erase_i t a b mode false =
  Ok (mkIT (iname t) (flat_map (keep1 a b mode) (ients t)) (imin t) (imax t)).
Proof.
  intros Hwf Hab Herr. unfold erase_i. destruct (Z.leb_spec b a); [lia|].
  rewrite (copy_itier_wf t Hwf). cbn [bind]. rewrite erase_keep_ok by exact Herr. cbn [bind].
  apply new_itier_id, (flat_map_wf_itier (fun x => x));
    [auto|apply keep1_pieces_ok, Hab|apply keep1_labels|exact Hwf|apply Z.le_refl..].
Qed.

Theorem erase_i_ok t a b mode doShrink :
  wf_itier t -> a < b -> imin t <= a -> b <= imax t ->
  (mode = EError -> forall i, In i (ients t) -> ~ overlaps a b i) ->
  erase_i t a b mode doShrink =
  Ok (mkIT (iname t) (erase_result_ents a b mode doShrink (ients t))
           (imin t) (if doShrink then imax t - (b - a) else imax t)).
Proof.
  intros Hwf Hab Hmin Hmax Herr. destruct doShrink; [|apply erase_i_keep_ok; assumption].
  unfold erase_i. destruct (Z.leb_spec b a); [lia|].
  rewrite (copy_itier_wf t Hwf). cbn [bind]. rewrite erase_keep_ok by exact Herr. cbn [bind].
  rewrite flat_map_flat_map. apply new_itier_id, join_at_wf_itier.
  apply (flat_map_wf_itier (tau_shrink a b) (es1 a b mode));
    [intros; apply tau_shrink_mono; assumption|apply es1_pieces_ok, Hab|apply es1_labels|exact Hwf| |].
  - rewrite tau_shrink_le; lia.
  - rewrite tau_shrink_ge; lia.
Qed.

Lemma erase_i_wf t a b m s t' : erase_i t a b m s = Ok t' -> wf_itier t'.
Proof.
  unfold erase_i. destruct (b <=? a); [discriminate|].
  destruct (copy_itier t); [|discriminate]. cbn [bind].
  destruct (erase_keep _ _ _ _); [|discriminate]. cbn [bind].
  destruct s; apply new_itier_wf.
Qed.

Lemma erase_i_name t a b m s t' : erase_i t a b m s = Ok t' -> iname t' = iname t.
Proof.
  unfold erase_i. destruct (b <=? a); [discriminate|]. intro H.
  apply bind_ok in H as (t0 & _ & H). apply bind_ok in H as (l1 & _ & H). destruct s; eapply new_itier_name, H.
Qed.

Lemma erase_p_name t a b s t' : erase_p t a b s = Ok t' -> pname t' = pname t.
Proof.
  unfold erase_p. intro H. apply bind_ok in H as (t0 & _ & H). destruct (b <=? a); [discriminate|].
  destruct s; [eapply new_ptier_name, H|now injection H as <-].
Qed.

Theorem erase_shrink_pointwise a b l x : a < b -> Forall pos l ->
  lab_at (erase_result_ents a b ETruncate true l) x
  = lab_at l (if x <? a then x else x + (b - a)).
Proof.
  intros Hab Hp. unfold erase_result_ents.
  rewrite join_at_lab by (eapply flat_map_pos; [apply es1_pieces_ok, Hab|exact Hp]).
  unfold es1. rewrite <- flat_map_flat_map. change (keep1 a b ETruncate) with (cut_out a b).
  rewrite (lab_at_flat_map_pointwise (shrink1 a b) _ false x (if x <? a then x else x + (b - a))).
  - rewrite cut_out_pointwise.
    now replace ((a <=? _) && (_ <? b)) with false by (destruct (Z.ltb_spec x a); lia).
  - intros j Hj. apply in_flat_map in Hj as (i & _ & Hj). apply shrink1_lab; [exact Hab|].
    eapply cut_out_clear, Hj.
Qed.

Theorem erase_straddler_one_interval a b l i : a < b -> wf_ients l ->
  In i l -> istart i < a -> b < iend i ->
  In (mkI (istart i) (iend i - (b - a)) (ilabel i)) (erase_result_ents a b ETruncate true l).
Proof.
  intros Hab Hw Hi Hs He. unfold erase_result_ents. induction l as [|k l IH]; [destruct Hi|].
  apply wf_ients_cons in Hw as (_ & Hb & Hw). cbn [flat_map]. destruct Hi as [->|Hi].
  - rewrite es1_straddle by assumption. simpl. rewrite Z.eqb_refl, text_eqb_refl. left; reflexivity.
  - specialize (IH Hw Hi). rewrite Forall_forall in Hb. specialize (Hb i Hi). unfold before in Hb.
    rewrite es1_before by lia. cbn [app]. rewrite join_at_skip; [right; exact IH|lia|].
    intro E. rewrite E in IH. destruct IH.
Qed.

Example erase_example_tier : itier :=
  mkIT [97%N] [mkI 0 2 [120%N]; mkI 2 8 [121%N]; mkI 9 10 [122%N]] 0 10.
Example erase_example_wf : wf_itier erase_example_tier.
Proof. apply wf_itierb_spec. vm_compute. reflexivity. Qed.
Example erase_example_run :
  erase_i erase_example_tier 3 5 ETruncate true
  = Ok (mkIT [97%N] [mkI 0 2 [120%N]; mkI 2 6 [121%N]; mkI 7 8 [122%N]] 0 8).
Proof. vm_compute. reflexivity. Qed.
