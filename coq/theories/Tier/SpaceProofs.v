(* Tier/SpaceProofs.v -- C08: insertSpace opens exactly the requested gap and
   eraseRegion (truncate, shrink) undoes it. *)
From PraatIO Require Import Tier.TierModel Tier.CtorProofs Tier.EraseProofs.

(* the time map of insertSpace, the tau of pieces_ok: times up to s stay, later times move by d *)
Definition tau_space (s d x : Z) : Z := if x <=? s then x else x + d.

Lemma tau_space_le s d x : x <= s -> tau_space s d x = x.
Proof. intro H. unfold tau_space. now destruct (Z.leb_spec x s); [|lia]. Qed.

Lemma tau_space_gt s d x : s < x -> tau_space s d x = x + d.
Proof. intro H. unfold tau_space. now destruct (Z.leb_spec x s); [lia|]. Qed.

Lemma tau_space_bounds s d x : 0 <= d -> x <= tau_space s d x <= x + d.
Proof. intro H. unfold tau_space. destruct (x <=? s); lia. Qed.

Lemma tau_space_mono s d x y : 0 <= d -> x <= y -> tau_space s d x <= tau_space s d y.
Proof. intros. unfold tau_space. destruct (Z.leb_spec x s), (Z.leb_spec y s); lia. Qed.

Lemma space1_before s d mode i : iend i <= s -> space1 s d mode i = [i].
Proof. intro H. unfold space1. now destruct (Z.leb_spec (iend i) s); [|lia]. Qed.

Lemma space1_after s d mode i : pos i -> s <= istart i -> space1 s d mode i = [shift d i].
Proof.
  unfold pos, space1. intros Hp H. destruct (Z.leb_spec (iend i) s); [lia|].
  now destruct (Z.leb_spec s (istart i)); [|lia].
Qed.

Theorem space1_straddle s d mode i :
  istart i < s < iend i ->
  space1 s d mode i =
  match mode with
  | SStretch => [mkI (istart i) (iend i + d) (ilabel i)]
  | SSplit => [mkI (istart i) s (ilabel i); mkI (s + d) (iend i + d) (ilabel i)]
  | SNoChange => [i]
  | SError => []
  end.
Proof.
  intro H. unfold space1. destruct (Z.leb_spec (iend i) s); [lia|].
  destruct (Z.leb_spec s (istart i)); [lia|reflexivity].
Qed.

Lemma straddlesb_iff s i : straddlesb s i = true <-> istart i < s < iend i.
Proof. unfold straddlesb. lia. Qed.

(* without a straddler, error mode does what no-change mode does *)
Lemma space1_error_nochange s d i :
  ~ (istart i < s < iend i) -> space1 s d SError i = space1 s d SNoChange i.
Proof.
  intro H. unfold space1. destruct (Z.leb_spec (iend i) s); [reflexivity|].
  destruct (Z.leb_spec s (istart i)); [reflexivity|lia].
Qed.

Lemma space1_pieces_ok s d mode : 0 <= d -> mode <> SError -> pieces_ok (tau_space s d) (space1 s d mode).
Proof.
  intros Hd Hm i Hp. pose proof Hp as Hp'. unfold pos in Hp'.
  pose proof (tau_space_bounds s d (istart i) Hd).
  destruct (Z.le_gt_cases (iend i) s); [|destruct (Z.le_gt_cases s (istart i))].
  - rewrite space1_before, !tau_space_le by lia. apply pieces_single; [exact Hp|split; lia].
  - rewrite space1_after, (tau_space_gt s d (iend i)) by (assumption || lia).
    apply pieces_single; [unfold pos|split]; simpl; lia.
  - rewrite space1_straddle, tau_space_le, tau_space_gt by lia. destruct mode; [| | |congruence].
    + apply pieces_single; [unfold pos|split]; simpl; lia.
    + split; [apply wf_pair; unfold pos, before; simpl; lia|repeat constructor; simpl; lia].
    + apply pieces_single; [exact Hp|split; lia].
Qed.

Lemma space1_labels s d mode i j : In j (space1 s d mode i) -> ilabel j = ilabel i.
Proof.
  unfold space1. destruct (iend i <=? s); [intros [<-|[]]; reflexivity|].
  destruct (s <=? istart i); [intros [<-|[]]; reflexivity|].
  destruct mode; simpl; intuition (subst; reflexivity).
Qed.

Theorem space_i_ok t s d mode :
  wf_itier t -> 0 <= d -> imin t <= s ->
  (mode = SError -> forall i, In i (ients t) -> ~ (istart i < s < iend i)) ->
  space_i t s d mode =
  Ok (mkIT (iname t) (flat_map (space1 s d (match mode with SError => SNoChange | m => m end)) (ients t))
           (imin t) (imax t + d)).
Proof.
  intros Hwf Hd Hmin Herr. unfold space_i.
  set (m := match mode with SError => SNoChange | m => m end).
  assert (m <> SError) as Hm by (destruct mode; discriminate).
  assert (flat_map (space1 s d mode) (ients t) = flat_map (space1 s d m) (ients t)) as ->.
  { destruct mode; try reflexivity. rewrite !flat_map_concat_map. f_equal. apply map_ext_in.
    intros i Hi. apply space1_error_nochange, (Herr eq_refl i Hi). }
  replace (_ && _) with false.
  2: { destruct mode; try reflexivity. symmetry. apply not_true_is_false. cbn [andb]. rewrite existsb_exists.
       intros (i & Hi & Hst). apply straddlesb_iff in Hst. exact (Herr eq_refl i Hi Hst). }
  apply new_itier_id, (flat_map_wf_itier (tau_space s d));
    [intros; apply tau_space_mono; assumption|apply space1_pieces_ok; assumption|apply space1_labels|exact Hwf| |].
  - rewrite tau_space_le; lia.
  - apply tau_space_bounds, Hd.
Qed.

Lemma space_i_wf t s d mode t' : space_i t s d mode = Ok t' -> wf_itier t'.
Proof. unfold space_i. destruct (_ && _); [discriminate|]. apply new_itier_wf. Qed.

Lemma space1_lab_before s d mode i x : mode <> SError -> 0 <= d -> x < s ->
  lab_at (space1 s d mode i) x = lab_at [i] x.
Proof.
  intros Hm Hd Hx. unfold space1. destruct (Z.leb_spec (iend i) s); [reflexivity|].
  rewrite (lab_at_one i). destruct (Z.leb_spec s (istart i)); [|destruct mode; [| |reflexivity|congruence]].
  - rewrite lab_at_one. unfold coversb, shift. simpl. f_equal. lia.
  - rewrite lab_at_one. unfold coversb. simpl. f_equal. lia.
  - rewrite lab_at_cons, !lab_at_one, orelse_lab_if. unfold coversb. simpl. f_equal. lia.
Qed.

Lemma space1_lab_after s d mode i x : (mode = SStretch \/ mode = SSplit) -> 0 <= d -> s + d <= x ->
  lab_at (space1 s d mode i) x = lab_at [i] (x - d).
Proof.
  intros Hm Hd Hx. unfold space1. rewrite (lab_at_one i).
  destruct (Z.leb_spec (iend i) s); [|destruct (Z.leb_spec s (istart i)); [|destruct Hm as [-> | ->]]].
  - rewrite lab_at_one. unfold coversb. f_equal. lia.
  - rewrite lab_at_one. unfold coversb, shift. simpl. f_equal. lia.
  - rewrite lab_at_one. unfold coversb. simpl. f_equal. lia.
  - rewrite lab_at_cons, !lab_at_one, orelse_lab_if. unfold coversb. simpl. f_equal. lia.
Qed.

Lemma space1_lab_gap_split s d i x : s <= x < s + d ->
  lab_at (space1 s d SSplit i) x = None.
Proof.
  intros Hx. change None with (lab_if false (ilabel i)). unfold space1.
  destruct (Z.leb_spec (iend i) s); [|destruct (Z.leb_spec s (istart i))].
  - rewrite lab_at_one. unfold coversb. f_equal. lia.
  - rewrite lab_at_one. unfold coversb, shift. cbn [istart iend ilabel]. f_equal. lia.
  - rewrite lab_at_cons, !lab_at_one, orelse_lab_if. unfold coversb. cbn [istart iend ilabel]. f_equal. lia.
Qed.

Theorem space_pointwise_before s d mode l x : mode <> SError -> 0 <= d -> x < s ->
  lab_at (flat_map (space1 s d mode) l) x = lab_at l x.
Proof.
  intros. apply (lab_at_flat_map_pointwise _ l false x x). intros i _. apply space1_lab_before; assumption.
Qed.

Theorem space_pointwise_after s d mode l x : (mode = SStretch \/ mode = SSplit) -> 0 <= d -> s + d <= x ->
  lab_at (flat_map (space1 s d mode) l) x = lab_at l (x - d).
Proof.
  intros. apply (lab_at_flat_map_pointwise _ l false x (x - d)). intros i _. apply space1_lab_after; assumption.
Qed.

Theorem erase_insert_inverse_pointwise s d mode l x :
  (mode = SStretch \/ mode = SSplit) -> 0 < d -> Forall pos l ->
  lab_at (erase_result_ents s (s + d) ETruncate true (flat_map (space1 s d mode) l)) x = lab_at l x.
Proof.
  intros Hm Hd Hp.
  assert (mode <> SError) as Hne by (destruct Hm; subst; discriminate).
  rewrite erase_shrink_pointwise; [|lia|eapply flat_map_pos; [apply space1_pieces_ok; [lia|exact Hne]|exact Hp]].
  replace (s + d - s) with d by lia. destruct (Z.ltb_spec x s).
  - apply space_pointwise_before; [assumption|lia|assumption].
  - rewrite space_pointwise_after; [f_equal; lia|assumption|lia|lia].
Qed.

Theorem erase_insert_inverse_tier t s d mode t1 :
  (mode = SStretch \/ mode = SSplit) -> 0 < d -> wf_itier t -> imin t <= s <= imax t ->
  space_i t s d mode = Ok t1 ->
  exists t2, erase_i t1 s (s + d) ETruncate true = Ok t2
             /\ imin t2 = imin t /\ imax t2 = imax t
             /\ forall x, lab_at (ients t2) x = lab_at (ients t) x.
Proof.
  intros Hm Hd Hwf Hs H1. pose proof (space_i_wf _ _ _ _ _ H1) as Hwf1.
  rewrite space_i_ok in H1; [|assumption|lia|lia|destruct Hm; subst; discriminate].
  injection H1 as <-.
  eexists. split.
  - apply erase_i_ok; [exact Hwf1|lia|simpl; lia|simpl; lia|discriminate].
  - simpl. split; [reflexivity|]. split; [lia|]. intro x.
    replace (match mode with SError => SNoChange | m => m end) with mode by (destruct Hm; subst; reflexivity).
    apply erase_insert_inverse_pointwise; [assumption|assumption|apply Hwf].
Qed.

Lemma space_i_name t s d m t' : space_i t s d m = Ok t' -> iname t' = iname t.
Proof. unfold space_i. destruct (_ && _); [discriminate|apply new_itier_name]. Qed.

Lemma space_p_name t s d t' : space_p t s d = Ok t' -> pname t' = pname t.
Proof. apply new_ptier_name. Qed.

Example space_example_run :
  space_i (mkIT [97%N] [mkI 0 2 [120%N]; mkI 2 8 [121%N]] 0 10) 4 3 SSplit
  = Ok (mkIT [97%N] [mkI 0 2 [120%N]; mkI 2 4 [121%N]; mkI 7 11 [121%N]] 0 13).
Proof. vm_compute. reflexivity. Qed.
