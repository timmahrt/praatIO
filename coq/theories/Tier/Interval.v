(* Tier/Interval.v -- the data of a tier, with time in integer ticks: entries,
   the order Python sorts them by, well-formedness, and the label a tier gives
   to each time. *)
From PraatIO Require Export Base.PyText.

Record interval := mkI { istart : Z; iend : Z; ilabel : text }.
Record point := mkP { ptime : Z; plabel : text }.
Record itier := mkIT { iname : text; ients : list interval; imin : Z; imax : Z }.
Record ptier := mkPT { pname : text; pents : list point; pmin : Z; pmax : Z }.

Definition interval_eqb (i j : interval) : bool :=
  (istart i =? istart j) && (iend i =? iend j) && text_eqb (ilabel i) (ilabel j).
Definition point_eqb (p q : point) : bool :=
  (ptime p =? ptime q) && text_eqb (plabel p) (plabel q).

Lemma interval_eqb_eq i j : interval_eqb i j = true <-> i = j.
Proof.
  destruct i, j; unfold interval_eqb; simpl.
  rewrite !andb_true_iff, !Z.eqb_eq, text_eqb_eq. split.
  - intros [[-> ->] ->]; reflexivity.
  - intros [= -> -> ->]; auto.
Qed.
Lemma point_eqb_eq p q : point_eqb p q = true <-> p = q.
Proof.
  destruct p, q; unfold point_eqb; simpl.
  rewrite andb_true_iff, Z.eqb_eq, text_eqb_eq. split.
  - intros [-> ->]; reflexivity.
  - intros [= -> ->]; auto.
Qed.

Definition ients_eqb := list_eqb interval_eqb.
Definition pents_eqb := list_eqb point_eqb.
Lemma ients_eqb_eq l m : ients_eqb l m = true <-> l = m.
Proof. apply list_eqb_eq, interval_eqb_eq. Qed.
Lemma pents_eqb_eq l m : pents_eqb l m = true <-> l = m.
Proof. apply list_eqb_eq, point_eqb_eq. Qed.

Definition itier_eqb (t u : itier) : bool :=
  text_eqb (iname t) (iname u) && ients_eqb (ients t) (ients u)
  && (imin t =? imin u) && (imax t =? imax u).
Definition ptier_eqb (t u : ptier) : bool :=
  text_eqb (pname t) (pname u) && pents_eqb (pents t) (pents u)
  && (pmin t =? pmin u) && (pmax t =? pmax u).

Lemma itier_eqb_eq t u : itier_eqb t u = true <-> t = u.
Proof.
  destruct t, u; unfold itier_eqb; simpl.
  rewrite !andb_true_iff, !Z.eqb_eq, text_eqb_eq, ients_eqb_eq. split.
  - intros [[[-> ->] ->] ->]; reflexivity.
  - intros [= -> -> -> ->]; auto.
Qed.
Lemma ptier_eqb_eq t u : ptier_eqb t u = true <-> t = u.
Proof.
  destruct t, u; unfold ptier_eqb; simpl.
  rewrite !andb_true_iff, !Z.eqb_eq, text_eqb_eq, pents_eqb_eq. split.
  - intros [[[-> ->] ->] ->]; reflexivity.
  - intros [= -> -> -> ->]; auto.
Qed.

(* entries compare as the Python tuples (start, end, label) and (time, label);
   ileb and pleb unfold to leb_of icmp and leb_of pcmp *)

Definition icmp (i j : interval) : comparison :=
  match Z.compare (istart i) (istart j) with
  | Eq => match Z.compare (iend i) (iend j) with
          | Eq => text_cmp (ilabel i) (ilabel j)
          | c => c end
  | c => c end.
Definition ileb (i j : interval) : bool :=
  match icmp i j with Gt => false | _ => true end.

Definition pcmp (p q : point) : comparison :=
  match Z.compare (ptime p) (ptime q) with
  | Eq => text_cmp (plabel p) (plabel q)
  | c => c end.
Definition pleb (p q : point) : bool :=
  match pcmp p q with Gt => false | _ => true end.

Definition isorti := isort ileb.
Definition isortp := isort pleb.

Lemma icmp_ok : cmp_ok icmp.
Proof.
  refine (cmp_ok_on (fun i => (istart i, (iend i, ilabel i))) _ _
            (lex_ok _ _ Z_compare_ok (lex_ok _ _ Z_compare_ok text_cmp_ok))).
  intros [] []; simpl; congruence.
Qed.
Lemma pcmp_ok : cmp_ok pcmp.
Proof.
  refine (cmp_ok_on (fun p => (ptime p, plabel p)) _ _ (lex_ok _ _ Z_compare_ok text_cmp_ok)).
  intros [] []; simpl; congruence.
Qed.

Lemma ileb_total i j : ileb i j = true \/ ileb j i = true.
Proof. exact (leb_of_total icmp i j icmp_ok). Qed.
Lemma ileb_antisym i j : ileb i j = true -> ileb j i = true -> i = j.
Proof. exact (leb_of_antisym icmp i j icmp_ok). Qed.
Lemma ileb_trans i j k : ileb i j = true -> ileb j k = true -> ileb i k = true.
Proof. exact (leb_of_trans icmp i j k icmp_ok). Qed.

Lemma pleb_total p q : pleb p q = true \/ pleb q p = true.
Proof. exact (leb_of_total pcmp p q pcmp_ok). Qed.
Lemma pleb_antisym p q : pleb p q = true -> pleb q p = true -> p = q.
Proof. exact (leb_of_antisym pcmp p q pcmp_ok). Qed.
Lemma pleb_trans p q r : pleb p q = true -> pleb q r = true -> pleb p r = true.
Proof. exact (leb_of_trans pcmp p q r pcmp_ok). Qed.

Definition pos (i : interval) : Prop := istart i < iend i.
Definition before (i j : interval) : Prop := iend i <= istart j.    (* touching allowed *)
Definition overlaps (a b : Z) (i : interval) : Prop := istart i < b /\ a < iend i.
Definition inside (a b : Z) (i : interval) : Prop := a <= istart i /\ iend i <= b.
Definition covers (i : interval) (x : Z) : Prop := istart i <= x < iend i.

Definition posb (i : interval) : bool := istart i <? iend i.
Definition overlapsb (a b : Z) (i : interval) : bool := (istart i <? b) && (a <? iend i).
Definition insideb (a b : Z) (i : interval) : bool := (a <=? istart i) && (iend i <=? b).
Definition coversb (i : interval) (x : Z) : bool := (istart i <=? x) && (x <? iend i).

Lemma overlapsb_iff a b i : overlapsb a b i = true <-> overlaps a b i.
Proof. unfold overlapsb, overlaps. lia. Qed.
Lemma insideb_iff a b i : insideb a b i = true <-> inside a b i.
Proof. unfold insideb, inside. lia. Qed.
Lemma coversb_iff i x : coversb i x = true <-> covers i x.
Proof. unfold coversb, covers. lia. Qed.

Lemma existsb_overlaps a b l :
  existsb (overlapsb a b) l = true <-> exists i, In i l /\ overlaps a b i.
Proof.
  rewrite existsb_exists. split; intros (i & Hi & Ho); exists i; split; auto; apply overlapsb_iff, Ho.
Qed.

Definition clip (a b : Z) (i : interval) : interval :=
  mkI (Z.max a (istart i)) (Z.min b (iend i)) (ilabel i).
Definition shift (d : Z) (i : interval) : interval :=
  mkI (istart i + d) (iend i + d) (ilabel i).
Definition pshift (d : Z) (p : point) : point := mkP (ptime p + d) (plabel p).

(* the label at time x: label of the first entry covering the cell [x, x+1) *)
Fixpoint lab_at (l : list interval) (x : Z) : option text :=
  match l with
  | [] => None
  | i :: l' => if coversb i x then Some (ilabel i) else lab_at l' x
  end.

Definition orelse {A} (a b : option A) : option A :=
  match a with Some _ => a | None => b end.

Lemma orelse_assoc {A} (a b c : option A) : orelse a (orelse b c) = orelse (orelse a b) c.
Proof. destruct a; reflexivity. Qed.

Lemma lab_at_app l m x : lab_at (l ++ m) x = orelse (lab_at l x) (lab_at m x).
Proof. induction l as [|i l IH]; simpl; [reflexivity|]. destruct (coversb i x); auto. Qed.

Lemma lab_at_flat_map {A} (f : A -> list interval) (l : list A) x :
  lab_at (flat_map f l) x =
  fold_right (fun a r => orelse (lab_at (f a) x) r) None l.
Proof. induction l as [|a l IH]; simpl; [reflexivity|]. now rewrite lab_at_app, IH. Qed.

(* Lifts a per-entry description through flat_map: at time x the pieces of an entry
   show nothing where the mask c holds, and elsewhere what the entry showed at time x'. *)
Lemma lab_at_flat_map_pointwise (f : interval -> list interval) (l : list interval) (c : bool) x x' :
  (forall i, In i l -> lab_at (f i) x = if c then None else lab_at [i] x') ->
  lab_at (flat_map f l) x = if c then None else lab_at l x'.
Proof.
  induction l as [|i l IH]; intro H; simpl; [destruct c; reflexivity|].
  rewrite lab_at_app, IH by (intros; apply H; right; assumption).
  rewrite (H i) by (left; reflexivity). simpl. destruct c; [reflexivity|].
  destruct (coversb i x'); reflexivity.
Qed.

Lemma lab_at_None_iff l x : lab_at l x = None <-> Forall (fun i => ~ covers i x) l.
Proof.
  induction l as [|i l IH]; simpl; [split; [constructor|reflexivity]|].
  rewrite Forall_cons_iff, <- coversb_iff, <- IH. destruct (coversb i x); intuition congruence.
Qed.

Lemma lab_at_Some_In l x lab : lab_at l x = Some lab -> exists i, In i l /\ covers i x /\ ilabel i = lab.
Proof.
  induction l as [|i l IH]; simpl; [discriminate|].
  destruct (coversb i x) eqn:E.
  - intros [= <-]. exists i. apply coversb_iff in E. auto.
  - intro H. destruct (IH H) as (j & Hj & Hc & Hl). exists j; auto.
Qed.

(* The label function of the pieces of one entry is "this label where a boolean
   holds"; what an operation does to it is then an identity between booleans
   over comparisons, which lia decides. *)
Definition lab_if (c : bool) (v : text) : option text := if c then Some v else None.

Lemma lab_at_one i x : lab_at [i] x = lab_if (coversb i x) (ilabel i).
Proof. reflexivity. Qed.
Lemma lab_at_cons j m x : lab_at (j :: m) x = orelse (lab_at [j] x) (lab_at m x).
Proof. exact (lab_at_app [j] m x). Qed.
Lemma lab_at_opt (c : bool) j x :
  lab_at (if c then [j] else []) x = lab_if (c && coversb j x) (ilabel j).
Proof. destruct c; reflexivity. Qed.
Lemma orelse_lab_if c d v : orelse (lab_if c v) (lab_if d v) = lab_if (c || d) v.
Proof. destruct c; reflexivity. Qed.
Lemma mask_lab_if (w c : bool) v : (if w then None else lab_if c v) = lab_if (negb w && c) v.
Proof. destruct w; reflexivity. Qed.

Definition wf_ients (l : list interval) : Prop :=
  Forall pos l /\ StronglySorted before l.

Definition in_span (mn mx : Z) (i : interval) : Prop := mn <= istart i /\ iend i <= mx.

Definition wf_itier (t : itier) : Prop :=
  wf_ients (ients t)
  /\ Forall (in_span (imin t) (imax t)) (ients t)
  /\ Forall (fun i => stripped (ilabel i)) (ients t).

Definition wf_pents (l : list point) : Prop :=
  StronglySorted (fun p q => ptime p <= ptime q) l.
Definition wf_ptier (t : ptier) : Prop :=
  wf_pents (pents t)
  /\ Forall (fun p => pmin t <= ptime p <= pmax t) (pents t)
  /\ Forall (fun p => stripped (plabel p)) (pents t).

(* boolean version, used as an oracle on implementation output *)
Fixpoint sorted_disjb (l : list interval) : bool :=
  match l with
  | [] => true
  | i :: l' => posb i
               && match l' with [] => true | j :: _ => iend i <=? istart j end
               && sorted_disjb l'
  end.

Lemma wf_ients_cons i l : wf_ients (i :: l) <-> pos i /\ Forall (before i) l /\ wf_ients l.
Proof.
  unfold wf_ients. split.
  - intros [Hp Hs]. inversion Hp; subst. inversion Hs; subst. tauto.
  - intros (Hp & Hb & Hp' & Hs'). split; constructor; assumption.
Qed.

Lemma wf_ients_nil : wf_ients [].
Proof. split; constructor. Qed.

Lemma before_trans i j k : before i j -> pos j -> before j k -> before i k.
Proof. unfold before, pos. lia. Qed.

Lemma wf_ients_cons_adj i j l : wf_ients (i :: j :: l) <-> pos i /\ before i j /\ wf_ients (j :: l).
Proof.
  rewrite wf_ients_cons. split.
  - intros (Hp & Hb & Hw). inversion Hb; subst. auto.
  - intros (Hp & Hb & Hw). split; [exact Hp|]. split; [|exact Hw].
    apply wf_ients_cons in Hw as (Pj & Bj & _). constructor; [exact Hb|].
    eapply Forall_impl; [|exact Bj]. intros k. now apply before_trans.
Qed.

Lemma wf_head_min i l : wf_ients (i :: l) -> Forall (fun j => istart i <= istart j) (i :: l).
Proof.
  intro Hw. apply wf_ients_cons in Hw as (Hp & Hb & _). constructor; [lia|].
  eapply Forall_impl; [|exact Hb]. unfold before, pos in *. intros; lia.
Qed.

Lemma wf_last_max l il : wf_ients l -> last_opt l = Some il -> Forall (fun i => iend i <= iend il) l.
Proof.
  induction l as [|i l IH]; intros Hw Hl; [constructor|].
  apply wf_ients_cons in Hw as (Hp & Hb & Hw').
  destruct l as [|j l'].
  - injection Hl as ->. constructor; [lia|constructor].
  - specialize (IH Hw' Hl). constructor; [|exact IH].
    inversion IH; subst. rewrite Forall_forall in Hb.
    assert (before i j) by (apply Hb; left; reflexivity).
    destruct Hw' as [Hpl _]. inversion Hpl; subst. unfold before, pos in *. lia.
Qed.

Lemma wf_not_in_tail i l : wf_ients (i :: l) -> ~ In i l.
Proof.
  intros Hw Hi. apply wf_ients_cons in Hw as (Hp & Hb & _). rewrite Forall_forall in Hb.
  specialize (Hb i Hi). unfold before, pos in *. lia.
Qed.

Lemma wf_pairwise l i j : wf_ients l -> In i l -> In j l -> i = j \/ before i j \/ before j i.
Proof.
  induction l as [|k l IH]; intros Hw Hi Hj; [destruct Hi|].
  apply wf_ients_cons in Hw as (_ & Hb & Hw). rewrite Forall_forall in Hb.
  destruct Hi as [->|Hi], Hj as [->|Hj]; auto.
Qed.

Lemma sorted_disjb_spec l : sorted_disjb l = true <-> wf_ients l.
Proof.
  induction l as [|i l IH]; [split; [intros _; apply wf_ients_nil|reflexivity]|]. destruct l as [|j l].
  - simpl. rewrite !andb_true_r, wf_ients_cons. unfold posb, pos. split; [|lia].
    intro H. split; [lia|]. split; [constructor|apply wf_ients_nil].
  - change (sorted_disjb (i :: j :: l)) with (posb i && (iend i <=? istart j) && sorted_disjb (j :: l)).
    rewrite wf_ients_cons_adj, !andb_true_iff, IH. unfold posb, pos, before. intuition lia.
Qed.

Definition in_spanb (mn mx : Z) (i : interval) : bool := (mn <=? istart i) && (iend i <=? mx).

Definition wf_itierb (t : itier) : bool :=
  sorted_disjb (ients t)
  && forallb (in_spanb (imin t) (imax t)) (ients t)
  && forallb (fun i => strippedb (ilabel i)) (ients t).

Lemma wf_itierb_spec t : wf_itierb t = true <-> wf_itier t.
Proof.
  unfold wf_itierb, wf_itier. apply andb3_iff; [apply sorted_disjb_spec| |]; apply forallb_Forall_iff; intro i.
  - unfold in_spanb, in_span. lia.
  - apply strippedb_spec.
Qed.

Fixpoint psortedb (l : list point) : bool :=
  match l with
  | [] => true
  | p :: l' => match l' with [] => true | q :: _ => ptime p <=? ptime q end && psortedb l'
  end.

Lemma psortedb_spec l : psortedb l = true <-> wf_pents l.
Proof.
  unfold wf_pents. induction l as [|p l IH]; [simpl; split; [constructor|reflexivity]|].
  cbn [psortedb]. rewrite andb_true_iff, IH. split.
  - intros [Hn Hs]. constructor; [exact Hs|].
    destruct l as [|q l]; [constructor|]. inversion Hs; subst.
    constructor; [lia|]. eapply Forall_impl; [|eassumption]. simpl. intros; lia.
  - intro H. inversion H; subst. split; [|assumption].
    destruct l as [|q l]; [reflexivity|]. inversion H3; subst. lia.
Qed.

Definition wf_ptierb (t : ptier) : bool :=
  psortedb (pents t)
  && forallb (fun p => (pmin t <=? ptime p) && (ptime p <=? pmax t)) (pents t)
  && forallb (fun p => strippedb (plabel p)) (pents t).

Lemma wf_ptierb_spec t : wf_ptierb t = true <-> wf_ptier t.
Proof.
  unfold wf_ptierb, wf_ptier. apply andb3_iff; [apply psortedb_spec| |]; apply forallb_Forall_iff; intro p.
  - lia.
  - apply strippedb_spec.
Qed.

Lemma wf_ients_ileb_sorted l : wf_ients l -> StronglySorted (lebP ileb) l.
Proof.
  induction l as [|i l IH]; intro H; [constructor|].
  apply wf_ients_cons in H as (Hp & Hb & Hw). constructor; [apply IH, Hw|].
  destruct Hw as [Hpl _]. rewrite Forall_forall in *. intros j Hj.
  specialize (Hb j Hj). specialize (Hpl j Hj). unfold before, pos, lebP, ileb, icmp in *.
  destruct (istart i ?= istart j) eqn:E; try reflexivity.
  - apply Z.compare_eq in E. lia.
  - rewrite Z.compare_gt_iff in E. lia.
Qed.

Lemma isorti_wf_id l : wf_ients l -> isorti l = l.
Proof. intro H. apply isort_sorted_id, wf_ients_ileb_sorted, H. Qed.

Lemma pleb_sorted_wf_pents l : StronglySorted (lebP pleb) l -> wf_pents l.
Proof.
  unfold wf_pents. induction 1 as [|p l Hs IH Hall]; constructor; auto.
  eapply Forall_impl; [|exact Hall]. intros q Hq. unfold lebP, pleb, pcmp in Hq. cbv beta.
  destruct (ptime p ?= ptime q) eqn:E; try discriminate.
  - apply Z.compare_eq in E. lia.
  - rewrite Z.compare_lt_iff in E. lia.
Qed.

Lemma wf_singleton i : pos i -> wf_ients [i].
Proof. intro H. apply wf_ients_cons. split; [exact H|]. split; [constructor|apply wf_ients_nil]. Qed.

Lemma wf_ients_filter p l : wf_ients l -> wf_ients (filter p l).
Proof.
  intros [P S]. split; [exact (incl_Forall (incl_filter p l) P)|apply StronglySorted_filter, S].
Qed.

Lemma wf_ients_map g l :
  (forall i j, before i j -> before (g i) (g j)) -> (forall i, In i l -> pos i -> pos (g i)) ->
  wf_ients l -> wf_ients (map g l).
Proof.
  intros Hb Hp [P S]. split; [|exact (StronglySorted_map before before g l Hb S)].
  rewrite Forall_forall in P. apply Forall_map, Forall_forall. auto.
Qed.

(* pieces_ok tau f: every positive entry i is replaced by a well-formed list of pieces f i
   that lie inside [tau (istart i), tau (iend i)].  For monotone tau the image of a well-formed
   list is then well-formed (flat_map_wf); eraseRegion, insertSpace and the set operations use it. *)

Definition pieces_ok (tau : Z -> Z) (f : interval -> list interval) : Prop :=
  forall i, pos i -> wf_ients (f i) /\ Forall (in_span (tau (istart i)) (tau (iend i))) (f i).

Lemma pieces_nil u v : wf_ients [] /\ Forall (in_span u v) [].
Proof. split; [apply wf_ients_nil|constructor]. Qed.

Lemma pieces_single u v j : pos j -> in_span u v j -> wf_ients [j] /\ Forall (in_span u v) [j].
Proof. intros Hp Hs. split; [apply wf_singleton, Hp|constructor; [exact Hs|constructor]]. Qed.

Lemma wf_ients_app l m :
  wf_ients l -> wf_ients m -> (forall i j, In i l -> In j m -> before i j) -> wf_ients (l ++ m).
Proof.
  induction l as [|i l IH]; intros Hl Hm Hb; simpl; [exact Hm|].
  apply wf_ients_cons in Hl as (Hp & Hbi & Hl). apply wf_ients_cons. split; [exact Hp|]. split.
  - apply Forall_app; split; [exact Hbi|]. apply Forall_forall. intros j Hj. apply Hb; simpl; auto.
  - apply IH; auto. intros; apply Hb; simpl; auto.
Qed.

Lemma wf_ients_app_inv l m : wf_ients (l ++ m) ->
  wf_ients l /\ wf_ients m /\ (forall i j, In i l -> In j m -> before i j).
Proof.
  intros [P S]. apply Forall_app in P as [P1 P2]. apply StronglySorted_app_inv in S as (S1 & S2 & B).
  exact (conj (conj P1 S1) (conj (conj P2 S2) B)).
Qed.

Lemma flat_map_wf (tau : Z -> Z) f l :
  (forall x y, x <= y -> tau x <= tau y) ->
  pieces_ok tau f -> wf_ients l -> wf_ients (flat_map f l).
Proof.
  intros Hmono Hf. induction l as [|i l IH]; intro Hw; simpl; [apply wf_ients_nil|].
  apply wf_ients_cons in Hw as (Hp & Hb & Hw).
  destruct (Hf i Hp) as [Hwi Hsi].
  apply wf_ients_app; [exact Hwi|apply IH, Hw|].
  intros a b Ha Hb'. apply in_flat_map in Hb' as (j & Hj & Hbj).
  rewrite Forall_forall in Hsi, Hb. destruct (Hsi a Ha) as [_ Ha2].
  destruct Hw as [Hpl _]. rewrite Forall_forall in Hpl.
  destruct (Hf j (Hpl j Hj)) as [_ Hsj]. rewrite Forall_forall in Hsj.
  destruct (Hsj b Hbj) as [Hb1 _]. specialize (Hb j Hj). unfold before in *.
  pose proof (Hmono _ _ Hb). lia.
Qed.

Lemma flat_map_in_span (tau : Z -> Z) f l mn mx :
  (forall x y, x <= y -> tau x <= tau y) ->
  pieces_ok tau f -> Forall pos l -> Forall (in_span mn mx) l ->
  Forall (in_span (tau mn) (tau mx)) (flat_map f l).
Proof.
  intros Hmono Hf Hp Hs. apply Forall_forall. intros a Ha.
  apply in_flat_map in Ha as (i & Hi & Hai).
  rewrite Forall_forall in Hp, Hs. destruct (Hf i (Hp i Hi)) as [_ Hsi].
  rewrite Forall_forall in Hsi. destruct (Hsi a Hai) as [A1 A2]. destruct (Hs i Hi) as [B1 B2].
  pose proof (Hmono _ _ B1). pose proof (Hmono _ _ B2). unfold in_span. lia.
Qed.

Lemma flat_map_pos tau f l : pieces_ok tau f -> Forall pos l -> Forall pos (flat_map f l).
Proof.
  intros Hf Hp. apply Forall_flat_map. eapply Forall_impl; [|exact Hp]. intros i Hi. apply (Hf i Hi).
Qed.

(* an operation done in two passes: the pieces of the pieces *)
Lemma pieces_ok_comp tau1 tau2 f g :
  (forall x y, x <= y -> tau2 x <= tau2 y) -> pieces_ok tau1 f -> pieces_ok tau2 g ->
  pieces_ok (fun x => tau2 (tau1 x)) (fun i => flat_map g (f i)).
Proof.
  intros M Hf Hg i Hp. destruct (Hf i Hp) as [W S]. split.
  - exact (flat_map_wf tau2 g _ M Hg W).
  - exact (flat_map_in_span tau2 g _ _ _ M Hg (proj1 W) S).
Qed.

Lemma wf_covers_unique l i j x :
  wf_ients l -> In i l -> In j l -> covers i x -> covers j x -> i = j.
Proof.
  induction l as [|k l IH]; intros Hw Hi Hj Hci Hcj; [destruct Hi|].
  apply wf_ients_cons in Hw as (Hp & Hb & Hw). rewrite Forall_forall in Hb.
  destruct Hi as [->|Hi], Hj as [->|Hj]; auto.
  - specialize (Hb j Hj). unfold before, covers in *. lia.
  - specialize (Hb i Hi). unfold before, covers in *. lia.
Qed.

Lemma lab_at_In_wf l i x :
  wf_ients l -> In i l -> covers i x -> lab_at l x = Some (ilabel i).
Proof.
  intros Hw Hi Hc. destruct (lab_at l x) as [lab|] eqn:E.
  - destruct (lab_at_Some_In _ _ _ E) as (j & Hj & Hcj & <-).
    f_equal. f_equal. eapply wf_covers_unique; eauto.
  - apply lab_at_None_iff in E. rewrite Forall_forall in E. exfalso. eapply E; eauto.
Qed.
