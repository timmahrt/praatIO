(* Tier/QueryFuzzyProofs.v -- C15: fuzzy getValueAtTime / getValuesAtPoints return the nearest sample.

   The loop of utils.getValueAtTime(fuzzyMatching=True) walks a list sorted by time, keeps the best row
   so far and stops as soon as the distance grows.  On a strictly time-sorted series the distance to
   the target is unimodal, so stopping early loses nothing: the row returned is a row of the series,
   no row is nearer to the target, and of two rows at the same distance the earlier one is returned. *)
From PraatIO Require Import Tier.QueryModel.


Definition dist (t : Z) (r : row) : Z := Z.abs (fst r - t).

(* r is a nearest row among best :: l, the earlier one on a tie *)
Definition nearest_of (t : Z) (best : row) (l : list row) (r : row) : Prop :=
  (r = best \/ In r l) /\
  forall r', r' = best \/ In r' l ->
    dist t r <= dist t r' /\ (dist t r = dist t r' -> fst r <= fst r').

Lemma sorted_app_lt (a b : list row) :
  StronglySorted Z.lt (map fst (a ++ b)) -> forall x y, In x a -> In y b -> fst x < fst y.
Proof.
  rewrite map_app. intros Hs x y Hx Hy. apply (StronglySorted_app_inv _ _ _ Hs); now apply in_map.
Qed.

(* unimodality, as the loop uses it: once a later row b is no nearer than a, every row after b is farther than a *)
Lemma later_farther t (a b : row) (l : list row) :
  fst a < fst b -> dist t a <= dist t b -> (forall x, In x l -> fst b < fst x) ->
  forall x, In x l -> dist t a < dist t x.
Proof.
  intros Hab Hd Hl x Hx. specialize (Hl x Hx). unfold dist in *.
  pose proof (abs_past_min t (fst a) (fst b) (fst x)). lia.
Qed.

Lemma vat_fuzzy_cons t best r l i :
  let v := vat_fuzzy t best (r :: l) i in
  (dist t r < dist t best /\ dist t r = 0 /\ v = (r, i)) \/
  (dist t r < dist t best /\ dist t r <> 0 /\ v = vat_fuzzy t r l (S i)) \/
  (dist t best < dist t r /\ v = (best, Init.Nat.pred i)) \/
  (dist t r = dist t best /\ v = vat_fuzzy t best l (S i)).
Proof.
  cbn [vat_fuzzy]. fold (dist t r) (dist t best).
  destruct (Z.ltb_spec (dist t r) (dist t best)); [destruct (Z.eqb_spec (dist t r) 0); auto|].
  destruct (Z.ltb_spec (dist t best) (dist t r)); [auto|]. right. right. right. split; [lia|reflexivity].
Qed.

Lemma vat_fuzzy_nearest t : forall (l : list row) best i,
  StronglySorted Z.lt (fst best :: map fst l) ->
  nearest_of t best l (fst (vat_fuzzy t best l i)).
Proof.
  induction l as [|r l IH]; intros best i Hs.
  - cbn [vat_fuzzy fst]. split; [left; reflexivity|].
    intros r' [->|[]]. split; intros; reflexivity || apply Z.le_refl.
  - pose proof (sorted_app_lt [best] (r :: l) Hs) as Hbest.
    assert (Hbr : fst best < fst r) by exact (Hbest best r (or_introl eq_refl) (or_introl eq_refl)).
    assert (Hr : forall x, In x l -> fst r < fst x)
      by (intros x Hx; exact (sorted_app_lt [best; r] l Hs r x (or_intror (or_introl eq_refl)) Hx)).
    cbn [app map] in Hs. apply StronglySorted_inv in Hs as [Hs' Hb].
    destruct (vat_fuzzy_cons t best r l i) as [(E1 & E0 & ->)|[(E1 & E0 & ->)|[(E2 & ->)|(E & ->)]]].
    + (* perfect match: r *)
      cbn [fst]. split; [right; left; reflexivity|].
      assert (forall x, 0 <= dist t x) by (intro; apply Z.abs_nonneg).
      intros r' Hr'. split; [specialize (H r'); lia|]. intro Heq.
      destruct Hr' as [->|[<-|Hin]]; [lia|lia|]. specialize (Hr _ Hin). lia.
    + (* r becomes the best *)
      destruct (IH r (S i) Hs') as [Hmem Hmin].
      split; [destruct Hmem as [->|Hin]; right; [left; reflexivity|right; exact Hin]|].
      intros r' [->|[<-|Hin]]; [|apply Hmin; now left|apply Hmin; now right].
      destruct (Hmin r (or_introl eq_refl)) as [Hle _]. lia.
    + (* past the best value: best *)
      cbn [fst]. split; [left; reflexivity|].
      intros r' [->|[<-|Hin]]; [lia|lia|].
      pose proof (later_farther t best r l Hbr (Z.lt_le_incl _ _ E2) Hr r' Hin). lia.
    + (* equal distance: the earlier row stays, and nothing later can do better *)
      assert (Hs2 : StronglySorted Z.lt (fst best :: map fst l))
        by (constructor; [eapply StronglySorted_inv, Hs'|eapply Forall_inv_tail, Hb]).
      destruct (IH best (S i) Hs2) as [Hmem Hmin].
      pose proof (later_farther t best r l Hbr (Z.eq_le_incl _ _ (eq_sym E)) Hr) as Hfar.
      assert (Hres : fst (vat_fuzzy t best l (S i)) = best).
      { destruct Hmem as [H|Hin]; [exact H|].
        destruct (Hmin best (or_introl eq_refl)) as [Hle _]. specialize (Hfar _ Hin). lia. }
      rewrite Hres. split; [left; reflexivity|].
      intros r' [->|[<-|Hin]]; [lia|lia|]. specialize (Hfar _ Hin). lia.
Qed.

(* the call as made by the source: the first row is both the initial best and the first row scanned *)
Lemma value_at_fuzzy_inv t data s r j : value_at_fuzzy t data s = Ok (r, j) ->
  exists r0 l, skipn s data = r0 :: l /\ vat_fuzzy t r0 l (S s) = (r, j).
Proof.
  unfold value_at_fuzzy. destruct (skipn s data) as [|r0 l]; [discriminate|].
  cbn [vat_fuzzy]. rewrite Z.ltb_irrefl. intros [= E]. now exists r0, l.
Qed.

Theorem value_at_fuzzy_nearest t data start r i :
  StronglySorted Z.lt (map fst (skipn start data)) ->
  value_at_fuzzy t data start = Ok (r, i) ->
  In r (skipn start data) /\
  forall r', In r' (skipn start data) ->
    dist t r <= dist t r' /\ (dist t r = dist t r' -> fst r <= fst r').
Proof.
  intros Hs H. destruct (value_at_fuzzy_inv _ _ _ _ _ H) as (r0 & l & E & Hv). unfold row in *. rewrite E in *.
  destruct (vat_fuzzy_nearest t l r0 (S start) Hs) as [Hmem Hmin]. rewrite Hv in Hmem, Hmin. cbn [fst] in Hmem, Hmin. split.
  - destruct Hmem as [->|Hin]; [left; reflexivity|right; exact Hin].
  - intros r' [<-|Hin]; apply Hmin; [left; reflexivity|right; exact Hin].
Qed.

(* non-vacuity: a series, a target between two samples, a tie *)
Example fuzzy_somewhere :
  value_at_fuzzy 7 [(0, 10); (4, 11); (10, 12); (20, 13)] 0 = Ok ((4, 11), 2%nat) /\
  value_at_fuzzy 8 [(0, 10); (4, 11); (10, 12); (20, 13)] 0 = Ok ((10, 12), 2%nat) /\
  StronglySorted Z.lt (map fst (skipn 0 [(0, 10); (4, 11); (10, 12); (20, 13)])).
Proof.
  split; [vm_compute; reflexivity|]. split; [vm_compute; reflexivity|].
  cbn [skipn map fst]. repeat (constructor; [|repeat (constructor; try lia)]). constructor.
Qed.

(* x lies as far after the target as r lies before it *)
Definition tie (t : Z) (r x : row) : Prop := dist t x = dist t r /\ fst r < fst x.

(* the rows scanned so far end with the best row, or with the best row followed by a tie *)
Definition scan_state (t : Z) (pre : list row) (best : row) : Prop :=
  (exists p0, pre = p0 ++ [best]) \/ (exists p0 e, pre = p0 ++ [best; e] /\ tie t best e).

(* the scan of `all` stopped at index j with row r: the rows before j are not later than r, and the rows
   from j on contain r or a row tied with it *)
Definition stopped (t : Z) (all : list row) (r : row) (j : nat) : Prop :=
  exists pre' l', all = pre' ++ l' /\ length pre' = j /\
    (forall x, In x pre' -> fst x <= fst r) /\
    exists x, In x l' /\ (x = r \/ tie t r x).

(* stopping with the best row kept so far: the index handed back is one before the end of what was scanned *)
Lemma scan_state_stop t pre best l :
  StronglySorted Z.lt (map fst (pre ++ l)) -> scan_state t pre best ->
  stopped t (pre ++ l) best (Init.Nat.pred (length pre)).
Proof.
  intros Hs [(p0 & ->)|(p0 & e & -> & Ht)]; rewrite <- app_assoc in *.
  - exists p0, ([best] ++ l). split; [reflexivity|]. split; [now rewrite app_length, Nat.add_1_r|]. split.
    + intros x Hx. apply Z.lt_le_incl, (sorted_app_lt _ _ Hs x best Hx). now left.
    + exists best. split; now left.
  - exists (p0 ++ [best]), (e :: l). split; [rewrite <- app_assoc; reflexivity|].
    split; [rewrite !app_length, !(Nat.add_comm (length p0)); reflexivity|]. split.
    + intros x Hx. apply in_app_or in Hx as [Hx|[<-|[]]]; [|lia].
      apply Z.lt_le_incl, (sorted_app_lt _ _ Hs x best Hx). now left.
    + exists e. split; [now left|now right].
Qed.

(* pre, the rows scanned so far, with scan_state is the loop invariant; the conclusion is
   stopped t (pre ++ l) r j written out *)
Lemma vat_fuzzy_index t : forall l pre best i r j,
  StronglySorted Z.lt (map fst (pre ++ l)) -> length pre = i -> scan_state t pre best ->
  vat_fuzzy t best l i = (r, j) ->
  exists pre' l', pre ++ l = pre' ++ l' /\ length pre' = j /\
    (forall x, In x pre' -> fst x <= fst r) /\
    exists x, In x l' /\ (x = r \/ tie t r x).
Proof.
  induction l as [|r0 l IH]; intros pre best i r j Hs Hlen Hst H.
  { injection H as <- <-. subst i. now apply scan_state_stop. }
  assert (Hpre : forall x, In x pre -> fst x < fst r0)
    by (intros x Hx; apply (sorted_app_lt _ _ Hs x r0 Hx); left; reflexivity).
  (* going on: r0 joins the scanned rows *)
  assert (Hnext : forall b, scan_state t (pre ++ [r0]) b -> vat_fuzzy t b l (S i) = (r, j) ->
            stopped t (pre ++ r0 :: l) r j).
  { intros b Hb Hv. change (r0 :: l) with ([r0] ++ l). rewrite app_assoc. apply (IH _ b (S i)); auto.
    - rewrite <- app_assoc. exact Hs.
    - rewrite app_length, Hlen. apply Nat.add_1_r. }
  destruct (vat_fuzzy_cons t best r0 l i) as [(_ & _ & E)|[(_ & _ & E)|[(_ & E)|(Ed & E)]]];
    unfold row in *; rewrite E in H; clear E.
  - injection H as <- <-. exists pre, (r0 :: l). split; [reflexivity|]. split; [exact Hlen|]. split.
    + intros x Hx. apply Z.lt_le_incl, Hpre, Hx.
    + exists r0. split; left; reflexivity.
  - apply (Hnext r0); [left; exists pre; reflexivity|exact H].
  - injection H as <- <-. subst i. now apply scan_state_stop.
  - (* equal distance: r0 is the tie; a second tie is impossible *)
    apply (Hnext best); [|exact H].
    destruct Hst as [(p0 & ->)|(p0 & e & -> & Ht)].
    + right. exists p0, r0. split; [rewrite <- app_assoc; reflexivity|].
      split; [exact Ed|]. apply Hpre, in_or_app. right. left. reflexivity.
    + exfalso. assert (fst e < fst r0) by (apply Hpre, in_or_app; right; right; left; reflexivity).
      pose proof (abs_past_min t (fst best) (fst e) (fst r0)) as Hp.
      fold (dist t best) (dist t e) (dist t r0) in Hp. unfold tie in Ht. lia.
Qed.

(* dropping the first s rows loses nothing for target t *)
Definition prefix_ok (t : Z) (data : list row) (s : nat) : Prop :=
  forall r', In r' (firstn s data) -> exists x, In x (skipn s data) /\ dist t x <= dist t r'.

Definition gnearest (t : Z) (data : list row) (r : row) : Prop :=
  In r data /\ forall r', In r' data -> dist t r <= dist t r'.

(* the search as called: it starts with the first s rows behind it *)
Lemma value_at_fuzzy_stopped t data s r j :
  StronglySorted Z.lt (map fst data) -> value_at_fuzzy t data s = Ok (r, j) -> stopped t data r j.
Proof.
  intros Hs H. destruct (value_at_fuzzy_inv _ _ _ _ _ H) as (r0 & l & E & H'). unfold row in *.
  assert (Hdata : (firstn s data ++ [r0]) ++ l = data)
    by (rewrite <- app_assoc; cbn [app]; rewrite <- E; apply firstn_skipn).
  pose proof (vat_fuzzy_index t l (firstn s data ++ [r0]) r0 (S s) r j) as X. unfold row in X. rewrite Hdata in X.
  apply X; [exact Hs| |left; eexists; reflexivity|exact H'].
  rewrite app_length, firstn_length_le, Nat.add_1_r; [reflexivity|].
  destruct (Nat.le_gt_cases s (length data)) as [Hl|Hl]; [exact Hl|].
  rewrite skipn_all2 in E by (apply Nat.lt_le_incl, Hl). discriminate E.
Qed.

(* r is nearest to t and the scan stopped at j: for a later target the rows before j can be dropped, since each
   of them is at most as late as r, and the row at r (or its tie, on the far side of t) is still no farther *)
Lemma stopped_prefix_ok t data r j t2 :
  gnearest t data r -> stopped t data r j -> t <= t2 -> prefix_ok t2 data j.
Proof.
  intros [_ Hg] (pre' & l' & Heq & <- & Hbefore & x & Hx & Hxr) Ht2 r' Hr'.
  rewrite Heq in Hr', Hg |- *.
  assert (Hr'' : In r' pre') by (rewrite <- (firstn_app_exact pre' l'); exact Hr').
  exists x. split; [rewrite <- (skipn_app_exact pre' l') in Hx; exact Hx|].
  specialize (Hbefore _ Hr''). specialize (Hg r' (in_or_app _ _ _ (or_introl Hr''))). unfold dist in *.
  apply (abs_nearer_later (fst r') (fst x) t t2); [| |exact Ht2]; destruct Hxr as [->|[Hd Hl]]; try lia.
  unfold dist in Hd. now rewrite Hd.
Qed.

Lemma value_at_fuzzy_step t data s r j :
  StronglySorted Z.lt (map fst data) -> prefix_ok t data s ->
  value_at_fuzzy t data s = Ok (r, j) ->
  gnearest t data r /\ forall t2, t <= t2 -> prefix_ok t2 data j.
Proof.
  intros Hs Hp H.
  assert (Hsk : StronglySorted Z.lt (map fst (skipn s data))).
  { rewrite <- (firstn_skipn s data), map_app in Hs. apply (StronglySorted_app_inv _ _ _ Hs). }
  destruct (value_at_fuzzy_nearest _ _ _ _ _ Hsk H) as [Hin Hmin].
  assert (Hg : gnearest t data r).
  { split.
    - rewrite <- (firstn_skipn s data). apply in_or_app. right. exact Hin.
    - intros r' Hr'. rewrite <- (firstn_skipn s data) in Hr'. apply in_app_or in Hr'.
      destruct Hr' as [Hr'|Hr']; [|apply Hmin; exact Hr'].
      destruct (Hp _ Hr') as (x & Hx & Hle). destruct (Hmin _ Hx) as [Hle' _]. lia. }
  split; [exact Hg|]. intros t2. apply (stopped_prefix_ok t data r j t2 Hg), (value_at_fuzzy_stopped _ _ _ _ _ Hs H).
Qed.

(* getValuesAtPoints(fuzzyMatching=True) on a time-sorted series and time-ordered points (possibly repeated):
   one row per point, each a row of the series, and no row of the WHOLE series is nearer to its point --
   handing the stop index of one search to the next as its start index loses nothing *)
Theorem gvap_fuzzy_nearest data : forall pts s rows,
  StronglySorted Z.lt (map fst data) -> StronglySorted Z.le pts ->
  (forall t, In t pts -> prefix_ok t data s) ->
  gvap_fuzzy pts data s = Ok rows ->
  Forall2 (fun t r => gnearest t data r) pts rows.
Proof.
  induction pts as [|t pts IH]; intros s rows Hs Hpts Hp H.
  - cbn [gvap_fuzzy] in H. injection H as <-. constructor.
  - cbn [gvap_fuzzy] in H. apply bind_ok in H as ([r j] & E & H). apply bind_ok in H as (rest & E2 & H).
    cbn [fst snd] in *. injection H as <-.
    destruct (value_at_fuzzy_step _ _ _ _ _ Hs (Hp t (or_introl eq_refl)) E) as [Hg Hnext].
    apply StronglySorted_inv in Hpts. destruct Hpts as [Hpts Hall].
    constructor; [exact Hg|].
    apply (IH j rest Hs Hpts); [|exact E2].
    intros t2 Ht2. apply Hnext. rewrite Forall_forall in Hall. apply Hall. exact Ht2.
Qed.

Example gvap_fuzzy_somewhere :
  gvap_fuzzy [7; 7; 8; 30] [(0, 10); (4, 11); (10, 12); (20, 13)] 0
  = Ok [(4, 11); (10, 12); (10, 12); (20, 13)].
Proof. vm_compute. reflexivity. Qed.
