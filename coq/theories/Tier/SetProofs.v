(* Tier/SetProofs.v -- C10: set operations on tiers, compared as functions of time (`covered`: some entry covers x;
   `labelled`: lab_at is defined at x).  difference and union are folds of eraseRegion and insertEntry(merge), followed
   step by step on that function; intersection and mergeLabels collect, interval by interval, what a truncating crop
   leaves (crop_fold, crop_collect) and are given in closed form. *)
From PraatIO Require Import Tier.TierModel Tier.CtorProofs Tier.CropProofs Tier.EraseProofs Tier.InsertProofs.

Definition covered (l : list interval) (x : Z) : bool := existsb (fun j => coversb j x) l.

Lemma covered_perm l m x : Permutation l m -> covered l x = covered m x.
Proof.
  intro P. unfold covered. induction P; simpl; try congruence.
  destruct (coversb x0 x), (coversb y x); reflexivity.
Qed.

Lemma covered_app l m x : covered (l ++ m) x = covered l x || covered m x.
Proof. unfold covered. apply existsb_app. Qed.

Lemma covered_insert e l x : covered (insert ileb e l) x = coversb e x || covered l x.
Proof. rewrite <- (covered_perm _ _ x (insert_perm ileb e l)). reflexivity. Qed.

Lemma covered_partition p l x :
  covered l x = covered (filter p l) x || covered (filter (fun i => negb (p i)) l) x.
Proof.
  unfold covered. induction l as [|i l IH]; [reflexivity|]. simpl.
  destruct (p i); simpl; rewrite IH;
    destruct (coversb i x), (existsb (fun j => coversb j x) (filter p l)),
             (existsb (fun j => coversb j x) (filter (fun i0 => negb (p i0)) l)); reflexivity.
Qed.

Lemma covered_true_iff l x : covered l x = true <-> exists i, In i l /\ covers i x.
Proof.
  unfold covered. rewrite existsb_exists. split; intros (i & Hi & Hc); exists i; (split; [exact Hi|]);
    unfold coversb, covers in *; lia.
Qed.

Lemma difference_fold js : forall t,
  wf_itier t -> Forall pos js ->
  exists t', fold_res (fun t e => erase_i t (istart e) (iend e) ETruncate false) js t = Ok t'
    /\ wf_itier t' /\ iname t' = iname t /\ imin t' = imin t /\ imax t' = imax t
    /\ forall x, lab_at (ients t') x = if covered js x then None else lab_at (ients t) x.
Proof.
  induction js as [|j js IH]; intros t Hwf Hp.
  - exists t. simpl. split; [reflexivity|]. split; [exact Hwf|]. repeat (split; [reflexivity|]). intro x; reflexivity.
  - apply Forall_cons_iff in Hp as [Hj Hp']. cbn [fold_res].
    rewrite erase_i_keep_ok by (assumption || discriminate). cbn [bind].
    set (t1 := mkIT (iname t) (flat_map (keep1 (istart j) (iend j) ETruncate) (ients t)) (imin t) (imax t)).
    assert (wf_itier t1) as Hwf1 by (eapply erase_i_wf, erase_i_keep_ok; assumption || discriminate).
    destruct (IH t1 Hwf1 Hp') as (t' & E & W & N & Mn & Mx & L).
    exists t'. split; [exact E|]. split; [exact W|]. split; [exact N|]. split; [exact Mn|]. split; [exact Mx|].
    intro x. rewrite L. simpl ients.
    change (keep1 (istart j) (iend j) ETruncate) with (cut_out (istart j) (iend j)).
    rewrite cut_out_pointwise.
    unfold covered. cbn [existsb]. unfold coversb at 2.
    destruct (existsb (fun j0 => coversb j0 x) js); [destruct ((istart j <=? x) && (x <? iend j)); reflexivity|].
    rewrite orb_false_r. reflexivity.
Qed.

Definition inter_entries (A B : list interval) : list interval :=
  flat_map (fun j => map (relabel (fun l => l ++ DASH ++ ilabel j))
                         (crop_spec_ents (istart j) (iend j) Truncated A)) B.

(* collecting, interval by interval, what a truncating crop of A leaves under it: the loop of intersection
   and of mergeLabels; F is the loop body's own step, f what it appends *)
Lemma crop_fold A (F : list interval -> interval -> itier -> res (list interval))
      (f : interval -> list interval -> list interval) js :
  (forall acc j c, F acc j c = Ok (acc ++ f j (ients c))) -> wf_itier A -> Forall pos js -> forall acc,
  fold_res (fun acc j => do c <- crop_i A (istart j) (iend j) Truncated false; F acc j c) js acc
  = Ok (acc ++ flat_map (fun j => f j (crop_spec_ents (istart j) (iend j) Truncated (ients A))) js).
Proof.
  intros HF HA. induction js as [|j js IH]; intros Hp acc; cbn [fold_res flat_map].
  - now rewrite app_nil_r.
  - apply Forall_cons_iff in Hp as [Hj Hp].
    rewrite (crop_i_spec _ _ _ _ _ HA). unfold crop_spec.
    destruct (Z.leb_spec (iend j) (istart j)); [unfold pos in Hj; lia|]. cbn [bind].
    rewrite HF. cbn [bind ients]. rewrite (IH Hp). now rewrite <- app_assoc.
Qed.

(* the constructor keeps what the loop collects: the pieces of each interval lie within it, so the
   collected list is in order *)
Lemma crop_collect A B name (F : list interval -> interval -> itier -> res (list interval))
      (f : interval -> list interval -> list interval) mn mx :
  let pieces j := f j (crop_spec_ents (istart j) (iend j) Truncated (ients A)) in
  (forall acc j c, F acc j c = Ok (acc ++ f j (ients c))) -> wf_itier A -> wf_ients B ->
  pieces_ok (fun x => x) pieces -> labels_stripped (flat_map pieces B) ->
  (do parts <- fold_res (fun acc j => do c <- crop_i A (istart j) (iend j) Truncated false; F acc j c) B [];
   new_itier name parts (Some mn) (Some mx))
  = Ok (mkIT name (flat_map pieces B) (hull_min (flat_map pieces B) mn) (hull_max (flat_map pieces B) mx)).
Proof.
  intros pieces HF HA WB Hp Hl. rewrite (crop_fold A F f B HF HA (proj1 WB)). cbn [bind app].
  apply new_itier_hull; [|exact Hl]. apply (flat_map_wf (fun x => x)); [intros; lia|exact Hp|exact WB].
Qed.

Lemma inter_pieces_ok A : wf_ients A ->
  pieces_ok (fun x => x) (fun j => map (relabel (fun l => l ++ DASH ++ ilabel j))
                                      (crop_spec_ents (istart j) (iend j) Truncated A)).
Proof.
  intros HA j Hj. set (c := crop_spec_ents (istart j) (iend j) Truncated A).
  assert (wf_ients c) as [Pc Sc] by (apply crop_spec_ents_wf; assumption).
  assert (Forall (in_span (istart j) (iend j)) c) as Wc by (apply crop_ents_in_window; discriminate).
  (* relabelling moves no boundary *)
  split; [split|]; [apply Forall_map, Pc|apply (StronglySorted_map before), Sc; auto|apply Forall_map, Wc].
Qed.

Theorem intersection_explicit A B :
  wf_itier A -> wf_itier B ->
  intersection_i A B =
  Ok (mkIT (iname A ++ DASH ++ iname B) (inter_entries (ients A) (ients B))
           (hull_min (inter_entries (ients A) (ients B)) (imin A))
           (hull_max (inter_entries (ients A) (ients B)) (imax A))).
Proof.
  intros HA HB. pose proof HA as (WA & SA & LA). pose proof HB as (WB & SB & LB).
  apply (crop_collect A (ients B) _ _ (fun j c => map (relabel (fun l => l ++ DASH ++ ilabel j)) c));
    [reflexivity|exact HA|exact WB|apply inter_pieces_ok, WA|].
  unfold labels_stripped. apply Forall_forall. intros k Hk.
  apply in_flat_map in Hk as (j & Hj & Hk). apply in_map_iff in Hk as (i & <- & Hi). simpl.
  apply stripped_join2; [| |reflexivity].
  - pose proof (crop_spec_ents_stripped (istart j) (iend j) Truncated (ients A) LA) as H.
    unfold labels_stripped in H. rewrite Forall_forall in H. apply H, Hi.
  - unfold labels_stripped in LB. rewrite Forall_forall in LB. apply LB, Hj.
Qed.

Definition labelled (l : list interval) (x : Z) : bool :=
  match lab_at l x with Some _ => true | None => false end.

Lemma labelled_covered l x : labelled l x = covered l x.
Proof.
  unfold labelled, covered. induction l as [|i l IH]; [reflexivity|]. cbn [lab_at existsb].
  destruct (coversb i x); [reflexivity|exact IH].
Qed.

Lemma labelled_app l m x : labelled (l ++ m) x = labelled l x || labelled m x.
Proof. rewrite !labelled_covered. apply covered_app. Qed.

Lemma labelled_relabel f l x : labelled (map (relabel f) l) x = labelled l x.
Proof.
  rewrite !labelled_covered. unfold covered. induction l as [|i l IH]; [reflexivity|]. cbn [map existsb].
  now rewrite IH.
Qed.

Theorem intersection_pointwise A B x :
  labelled (inter_entries A B) x = labelled A x && covered B x.
Proof.
  unfold inter_entries. induction B as [|j B IH]; cbn [flat_map covered existsb].
  - unfold labelled at 1. simpl. now rewrite andb_false_r.
  - rewrite labelled_app, labelled_relabel, IH.
    unfold labelled at 1. rewrite crop_trunc_pointwise. unfold coversb at 1.
    fold (covered B x).
    destruct ((istart j <=? x) && (x <? iend j)); simpl.
    + fold (labelled A x). destruct (labelled A x); reflexivity.
    + reflexivity.
Qed.

Lemma joint_covers e ms x :
  Forall (overlaps (istart e) (iend e)) ms ->
  coversb (joint_entry e ms) x = covered ms x || coversb e x.
Proof.
  intros Ho. unfold joint_entry. unfold coversb at 1; simpl.
  destruct (hull_min_spec ms (istart e)) as (A1 & A2 & A3).
  destruct (hull_max_spec ms (iend e)) as (B1 & B2 & B3).
  rewrite Forall_forall in A2, B2, Ho.
  apply Bool.eq_true_iff_eq. rewrite orb_true_iff, covered_true_iff. unfold coversb, covers. split.
  - (* x lies in the hull: in e, or on the side of e where a match gives the hull its bound *)
    intro C. destruct (Z.lt_ge_cases x (istart e)); [|destruct (Z.lt_ge_cases x (iend e)); [right; lia|]]; left.
    + destruct A3 as [E3|(m & Hm & E3)]; [lia|]. exists m. split; [exact Hm|]. destruct (Ho m Hm). lia.
    + destruct B3 as [E3|(m & Hm & E3)]; [lia|]. exists m. split; [exact Hm|]. destruct (Ho m Hm). lia.
  - intros [(m & Hm & Hc)|C]; [specialize (A2 m Hm); specialize (B2 m Hm)|]; lia.
Qed.

Lemma insert_merge_step t e :
  wf_itier t -> pos e -> stripped (ilabel e) ->
  exists t', insert_i_core t e IMerge = Ok t' /\ wf_itier t' /\ iname t' = iname t
    /\ forall x, covered (ients t') x = covered (ients t) x || coversb e x.
Proof.
  intros Hwf He Hle. rewrite (insert_i_spec _ _ _ Hwf). pose proof (insert_spec_merge t e He) as E.
  eexists. split; [exact E|]. destruct (insert_spec_wf _ _ _ _ Hwf E) as (W & S & L).
  split; [exact (conj W (conj S (L Hle)))|]. split; [reflexivity|]. intro x. cbn [ients].
  rewrite covered_insert, joint_covers; [|apply filter_overlaps].
  rewrite (covered_partition (overlapsb (istart e) (iend e)) (ients t) x).
  destruct (covered (filter (overlapsb _ _) _) x), (coversb e x), (covered (filter _ _) x); reflexivity.
Qed.

Lemma union_fold js : forall t,
  wf_itier t -> Forall pos js -> Forall (fun j => stripped (ilabel j)) js ->
  exists t', fold_res (fun t e => insert_i t e IMerge) js t = Ok t' /\ wf_itier t' /\ iname t' = iname t
    /\ forall x, covered (ients t') x = covered (ients t) x || covered js x.
Proof.
  induction js as [|j js IH]; intros t Hwf Hp Hl.
  - exists t. simpl. split; [reflexivity|]. split; [exact Hwf|]. split; [reflexivity|].
    intro x. now rewrite orb_false_r.
  - apply Forall_cons_iff in Hp as [Pj Hp]. apply Forall_cons_iff in Hl as [Lj Hl]. cbn [fold_res].
    destruct (insert_merge_step t j Hwf Pj Lj) as (t1 & E1 & W1 & N1 & C1).
    rewrite (insert_i_stripped t j IMerge Lj), E1. cbn [bind].
    destruct (IH t1 W1 Hp Hl) as (t' & E & W & N & C).
    exists t'. split; [exact E|]. split; [exact W|]. split; [congruence|].
    intro x. rewrite C, C1. unfold covered at 4. cbn [existsb]. fold (covered js x). now rewrite orb_assoc.
Qed.

Theorem union_covers A B :
  wf_itier A -> wf_itier B ->
  exists t', union_i A B = Ok t' /\ wf_itier t' /\ iname t' = iname A
    /\ forall x, covered (ients t') x = covered (ients A) x || covered (ients B) x.
Proof.
  intros HA (WB & SB & LB). unfold union_i. rewrite (copy_itier_wf A HA). cbn [bind].
  destruct (union_fold (ients B) A HA (proj1 WB) LB) as (t' & E & W & N & C).
  rewrite E. cbn [bind]. pose proof W as (Ww & Ws & Wl).
  rewrite (isorti_wf_id _ Ww). exists t'. destruct t'. simpl in *. auto.
Qed.

Definition merge_piece (B : list interval) (i : interval) : list interval :=
  let c := crop_spec_ents (istart i) (iend i) Truncated B in
  match c, last_opt c with
  | c0 :: _, Some cl =>
      [mkI (Z.min (istart i) (istart c0)) (Z.max (iend i) (iend cl))
           (ilabel i ++ LPAREN ++ join COMMA (map ilabel c) ++ RPAREN)]
  | _, _ => []
  end.

Definition merge_entries (A B : list interval) : list interval := flat_map (merge_piece B) A.

(* an interval of A appears iff some interval of B overlaps it, and then with exactly its own extent *)
Corollary merge_labels_extent (B : list interval) (i : interval) :
  wf_ients B -> pos i ->
  match merge_piece B i with
  | [] => crop_spec_ents (istart i) (iend i) Truncated B = []
  | [k] => istart k = istart i /\ iend k = iend i
  | _ => False
  end.
Proof.
  intros HB Hi. unfold merge_piece.
  set (c := crop_spec_ents (istart i) (iend i) Truncated B).
  assert (Forall (in_span (istart i) (iend i)) c) as Sc by (apply crop_ents_in_window; discriminate).
  destruct c as [|c0 c'] eqn:EC; [reflexivity|].
  destruct (last_opt (c0 :: c')) as [cl|] eqn:EL; [|apply last_opt_None in EL; discriminate].
  rewrite Forall_forall in Sc. destruct (Sc c0 (or_introl eq_refl)) as [S0 _]. destruct (Sc cl (last_opt_In _ _ EL)) as [_ S1].
  unfold pos in Hi. cbn [istart iend]. lia.
Qed.

Lemma merge_piece_ok B : wf_ients B -> pieces_ok (fun x => x) (merge_piece B).
Proof.
  intros HB i Hi. pose proof (merge_labels_extent B i HB Hi) as H.
  destruct (merge_piece B i) as [|k [|]]; [split; [apply wf_ients_nil|constructor]| |contradiction].
  destruct H as [Hs He]. unfold pos in Hi. split.
  - apply wf_ients_cons. split; [unfold pos; lia|]. split; [constructor|apply wf_ients_nil].
  - constructor; [unfold in_span; lia|constructor].
Qed.

Theorem merge_labels_explicit A B :
  wf_itier A -> wf_itier B ->
  merge_labels_i A B =
  Ok (mkIT (iname A ++ DASH ++ iname B) (merge_entries (ients A) (ients B))
           (hull_min (merge_entries (ients A) (ients B)) (imin A))
           (hull_max (merge_entries (ients A) (ients B)) (imax A))).
Proof.
  intros HA HB. pose proof HA as (WA & SA & LA). pose proof HB as (WB & SB & LB).
  apply (crop_collect B (ients A) _ _ (fun i c => match c, last_opt c with
                                                  | c0 :: _, Some cl =>
                                                      [mkI (Z.min (istart i) (istart c0)) (Z.max (iend i) (iend cl))
                                                           (ilabel i ++ LPAREN ++ join COMMA (map ilabel c) ++ RPAREN)]
                                                  | _, _ => [] end));
    [|exact HB|exact WA|exact (merge_piece_ok _ WB)|].
  { intros acc i c. cbv beta. destruct (ients c); [now rewrite app_nil_r|].
    destruct (last_opt _); [reflexivity|now rewrite app_nil_r]. }
  unfold labels_stripped. apply Forall_forall. intros k Hk.
  apply in_flat_map in Hk as (i & Hi & Hk).
  destruct (crop_spec_ents (istart i) (iend i) Truncated (ients B)) as [|c0 c'] eqn:EC; [contradiction|].
  destruct (last_opt (c0 :: c')); [|contradiction]. destruct Hk as [<-|[]]. cbn [ilabel].
  apply stripped_paren. unfold labels_stripped in LA. rewrite Forall_forall in LA. apply LA, Hi.
Qed.
