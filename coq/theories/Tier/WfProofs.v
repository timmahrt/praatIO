(* Tier/WfProofs.v -- C05: every tier reachable through the public operations is
   well-formed; validate() agrees. *)
From PraatIO Require Import Tier.TierOps Tier.CtorProofs Tier.CropProofs Tier.EraseProofs Tier.SpaceProofs Tier.EditProofs
     Tier.InsertProofs Tier.SetProofs Tier.InsertPProofs Tier.UnionPProofs.

(* union takes the entries of its argument as they are, one insertEntry each, so the argument must be a
   well-formed tier; the other operations with a tier argument end in the constructor, which checks its input *)
Definition args_wfI (o : opI) : Prop :=
  match o with
  | OpUnion B => wf_itier B
  | _ => True
  end.

Lemma remove_first_wf e l l' : wf_ients l -> remove_first interval_eqb e l = Some l' -> wf_ients l'.
Proof.
  intros [Hp Hs] E. split; [|eapply remove_first_sorted; eauto].
  eapply incl_Forall; [exact (remove_first_incl _ _ _ _ E)|exact Hp].
Qed.

Lemma delete_i_wf t e t' : wf_itier t -> delete_i t e = Ok t' -> wf_itier t'.
Proof.
  intros (Hw & Hs & Hl). unfold delete_i.
  destruct (remove_first interval_eqb e (ients t)) as [l|] eqn:E; [|discriminate]. intros [= <-].
  split; [eapply remove_first_wf; eauto|].
  split; (eapply incl_Forall; [exact (remove_first_incl _ _ _ _ E)|assumption]).
Qed.

Theorem run_opI_wf t o t' : wf_itier t -> args_wfI o -> run_opI t o = Ok t' -> wf_itier t'.
Proof.
  intros Hwf Ha E. destruct o; simpl in E.
  - eapply crop_i_wf, E.
  - eapply erase_i_wf, E.
  - eapply space_i_wf, E.
  - eapply edit_i_wf, E.
  - eapply insert_i_wf; eauto.
  - eapply delete_i_wf; eauto.
  - destruct (union_covers t B Hwf Ha) as (t2 & E2 & W & _). rewrite E in E2. injection E2 as <-. exact W.
  - unfold difference_i in E. destruct (copy_itier t) as [t0|] eqn:E0; [|discriminate]. cbn [bind] in E.
    assert (wf_itier t0) as W0 by (eapply new_itier_wf, E0).
    eapply (fold_res_inv wf_itier); [|exact W0|exact E]. intros s a s' _ Es. eapply erase_i_wf, Es.
  - unfold intersection_i in E. destruct (fold_res _ _ _); [|discriminate]. eapply new_itier_wf, E.
  - unfold merge_labels_i in E. destruct (fold_res _ _ _); [|discriminate]. eapply new_itier_wf, E.
  - unfold append_i in E. destruct (edit_i _ _ _); [|discriminate]. eapply new_itier_wf, E.
  - unfold dejitter_i in E. destruct (mapM _ _); [|discriminate]. eapply new_itier_wf, E.
  - unfold dejitter_i in E. destruct (mapM _ _); [|discriminate]. eapply new_itier_wf, E.
  - unfold morph_i in E. destruct (negb _); [discriminate|].
    destruct (last_opt _); [|discriminate]. destruct (last_opt _); [|discriminate]. eapply new_itier_wf, E.
  - eapply new_itier_wf, E.
  - eapply new_itier_wf, E.
Qed.

Theorem reachable_wf ops : forall t,
  wf_itier t -> Forall args_wfI ops -> wf_itier (fold_left stepI ops t).
Proof.
  induction ops as [|o ops IH]; intros t Hwf Ha; [exact Hwf|].
  inversion Ha; subst. simpl. apply IH; [|assumption].
  unfold stepI. destruct (run_opI t o) as [t'|] eqn:E; [|exact Hwf]. eapply run_opI_wf; eauto.
Qed.

Lemma validate_ients_wf mn mx l prev :
  wf_ients l -> Forall (in_span mn mx) l ->
  (match prev with Some p => Forall (before p) l | None => True end) ->
  validate_ients mn mx prev l = true.
Proof.
  revert prev. induction l as [|i l IH]; intros prev Hw Hs Hp; [reflexivity|].
  apply wf_ients_cons in Hw as (Hpi & Hb & Hw). inversion Hs as [|? ? [S1 S2] Hs']; subst.
  cbn [validate_ients]. rewrite (IH (Some i) Hw Hs' Hb). unfold pos in Hpi.
  assert (match prev with Some p => negb (istart i <? iend p) | None => true end = true) as ->.
  { destruct prev as [p|]; [|reflexivity]. inversion Hp; subst. unfold before in *. lia. }
  lia.
Qed.

Lemma validate_ients_sound mn mx l : forall prev,
  validate_ients mn mx prev l = true ->
  wf_ients l /\ Forall (in_span mn mx) l /\
  match prev, l with Some p, i :: _ => iend p <= istart i | _, _ => True end.
Proof.
  induction l as [|i l IH]; intros prev E; [split; [apply wf_ients_nil|split; [constructor|destruct prev; exact I]]|].
  cbn [validate_ients] in E. apply andb_true_iff in E as [E E5]. destruct (IH (Some i) E5) as (W & S & B).
  split; [|split].
  - destruct l as [|j l']; [apply wf_ients_cons; split; [unfold pos; lia|split; [constructor|exact W]]|].
    apply wf_ients_cons_adj. split; [unfold pos; lia|]. split; [exact B|exact W].
  - constructor; [unfold in_span; lia|exact S].
  - destruct prev as [p|]; [lia|exact I].
Qed.

Theorem wf_validate t : wf_itier t -> validate_i t = true.
Proof. intros (Hw & Hs & _). unfold validate_i. apply validate_ients_wf; auto. Qed.

Lemma edit_p_wf t o m t' : edit_p t o m = Ok t' -> wf_ptier t'.
Proof. unfold edit_p. destruct (_ && _); [discriminate|]. apply new_ptier_wf. Qed.

Lemma fold_min_le_init l : forall x, fold_left Z.min l x <= x.
Proof. intros x. apply fold_min_le. Qed.

Lemma delete_p_wf t e t' : wf_ptier t -> delete_p t e = Ok t' -> wf_ptier t'.
Proof.
  intros (Hw & Hs & Hl). unfold delete_p.
  destruct (remove_first point_eqb e (pents t)) as [l|] eqn:E; [|discriminate]. intros [= <-].
  split; [exact (remove_first_sorted _ _ _ _ _ E Hw)|].
  split; (eapply incl_Forall; [exact (remove_first_incl _ _ _ _ E)|assumption]).
Qed.

Definition args_wfP (o : opP) : Prop := True.

Theorem run_opP_wf t o t' : wf_ptier t -> run_opP t o = Ok t' -> wf_ptier t'.
Proof.
  intros Hwf E. destruct o; simpl in E.
  - unfold crop_p in E. destruct (b <=? a); [discriminate|]. destruct rebase; eapply new_ptier_wf, E.
  - unfold erase_p in E. destruct (copy_ptier t) as [t0|] eqn:E0; [|discriminate]. cbn [bind] in E.
    destruct (b <=? a); [discriminate|]. destruct doShrink; [eapply new_ptier_wf, E|].
    injection E as <-. apply new_ptier_wf in E0. destruct E0 as (W & S & L).
    split; [apply StronglySorted_filter, W|split; (eapply incl_Forall; [apply incl_filter|assumption])].
  - eapply new_ptier_wf, E.
  - eapply edit_p_wf, E.
  - eapply insert_p_wf; eauto.
  - eapply delete_p_wf; eauto.
  - unfold union_p in E. destruct (copy_ptier t) as [t0|] eqn:E0; [|discriminate]. cbn [bind] in E.
    destruct (fold_res _ _ t0) as [r|] eqn:Ef; [|discriminate]. cbn [bind] in E. injection E as <-.
    assert (wf_ptier r) as (W & S & L).
    { eapply (fold_res_inv wf_ptier); [|eapply new_ptier_wf, E0|exact Ef].
      intros s a s' Hs Es. cbv beta in Es. eapply insert_p_wf; [exact Hs|exact Es]. }
    split; [|simpl; split; rewrite Forall_forall in *; intros p Hp; apply isort_In in Hp; auto].
    apply isortp_wf.
  - unfold append_p in E. destruct (edit_p _ _ _); [|discriminate]. eapply new_ptier_wf, E.
  - unfold dejitter_p in E. destruct (mapM _ _); [|discriminate]. eapply new_ptier_wf, E.
  - unfold dejitter_p in E. destruct (mapM _ _); [|discriminate]. eapply new_ptier_wf, E.
  - eapply new_ptier_wf, E.
  - eapply new_ptier_wf, E.
Qed.

Theorem reachable_wf_p ops : forall t, wf_ptier t -> wf_ptier (fold_left stepP ops t).
Proof.
  induction ops as [|o ops IH]; intros t Hwf; [exact Hwf|]. simpl. apply IH.
  unfold stepP. destruct (run_opP t o) as [t'|] eqn:E; [|exact Hwf]. eapply run_opP_wf; eauto.
Qed.

Lemma validate_pents_wf mn mx l prev :
  wf_pents l -> Forall (fun p => mn <= ptime p <= mx) l ->
  (match prev with Some q => Forall (fun p => ptime q <= ptime p) l | None => True end) ->
  validate_pents mn mx prev l = true.
Proof.
  unfold wf_pents. revert prev. induction l as [|p l IH]; intros prev Hw Hs Hp; [reflexivity|].
  inversion Hw as [|? ? Hw' Hall]; subst. inversion Hs as [|? ? S1 Hs']; subst.
  cbn [validate_pents]. rewrite (IH (Some p) Hw' Hs' Hall).
  assert (match prev with Some q => negb (ptime p <? ptime q) | None => true end = true) as ->.
  { destruct prev as [q|]; [|reflexivity]. inversion Hp; subst. lia. }
  lia.
Qed.

Theorem wf_validate_p t : wf_ptier t -> validate_p t = true.
Proof. intros (Hw & Hs & _). unfold validate_p. apply validate_pents_wf; auto. Qed.
