(* Tier/InsertPProofs.v -- PointTier.insertEntry against its collision policy (C11), for every point tier and entry *)
From PraatIO Require Import Tier.TierModel.
Open Scope Z_scope.

(* the point of the tier the new entry collides with: the first one at the same time *)
Definition collides_with (t : ptier) (e : point) : option point := find_time (ptime e) (pents t).

Lemma find_time_In x l old : find_time x l = Some old -> In old l /\ ptime old = x.
Proof.
  induction l as [|p l IH]; [discriminate|]. simpl.
  destruct (Z.eqb_spec (ptime p) x).
  - intros [= <-]. split; [left; reflexivity|assumption].
  - intro H. destruct (IH H). split; [right; assumption|assumption].
Qed.

Lemma find_time_none x l : find_time x l = None <-> ~ In x (map ptime l).
Proof.
  induction l as [|p l IH]; cbn [find_time map In]; [tauto|].
  destruct (ptime p =? x) eqn:E.
  - split; [discriminate|]. intro H. exfalso. apply H. left. lia.
  - rewrite IH. split; [intros H [H1|H1]; [lia|auto]|tauto].
Qed.

Lemma isortp_wf l : wf_pents (isortp l).
Proof. apply pleb_sorted_wf_pents, isort_sorted; [apply pleb_total|apply pleb_trans]. Qed.

Lemma wf_pents_head_min p l : wf_pents (p :: l) -> Forall (fun q => ptime p <= ptime q) (p :: l).
Proof. intro W. apply StronglySorted_inv in W as [_ W]. constructor; [lia|exact W]. Qed.

Lemma wf_pents_last_max l pl : wf_pents l -> last_opt l = Some pl -> Forall (fun q => ptime q <= ptime pl) l.
Proof.
  intros W E. pose proof (last_opt_spec l) as S. rewrite E in S. destruct S as (l0 & ->).
  apply Forall_app. split; [|constructor; [lia|constructor]].
  apply Forall_forall. intros q Hq. apply (StronglySorted_app_inv _ _ _ W); [exact Hq|now left].
Qed.

(* self.sort() then the span update of PointTier.insertEntry, for points that lie within the old span *)
Lemma isortp_span rest new mn mx :
  (forall q, In q rest -> mn <= ptime q <= mx) ->
  let s := isortp (rest ++ [new]) in
  match s with p0 :: _ => if ptime p0 <? mn then ptime p0 else mn | [] => mn end = Z.min mn (ptime new) /\
  match last_opt s with Some pl => if mx <? ptime pl then ptime pl else mx | None => mx end = Z.max mx (ptime new).
Proof.
  intros Hr s. assert (wf_pents s) as W by apply isortp_wf.
  assert (forall y, In y s <-> y = new \/ In y rest) as Hin
    by (intro y; unfold s, isortp; rewrite isort_In, in_app_iff; cbn [In];
        split; [intros [H|[<-|[]]]|intros [->|H]]; auto).
  clearbody s. apply (span_grow ptime ptime s rest new); [exact Hin| | |exact Hr].
  - intros a r ->. apply Forall_forall, wf_pents_head_min, W.
  - intros b E. apply Forall_forall, (wf_pents_last_max _ _ W E).
Qed.

(* one new point at e's time joined the points that stay; on a collision the stay-behinds are the
   tier's points less the colliding one, and the mode decides the new point's label *)
Lemma insert_p_inv t e m t' : insert_p t e m = Ok t' ->
  exists new rest,
    pents t' = isortp (rest ++ [new]) /\ pname t' = pname t /\ ptime new = ptime e
    /\ pmin t' = match pents t' with p0 :: _ => if ptime p0 <? pmin t then ptime p0 else pmin t | [] => pmin t end
    /\ pmax t' = match last_opt (pents t') with Some pl => if pmax t <? ptime pl then ptime pl else pmax t | None => pmax t end
    /\ (forall q, In q rest -> In q (pents t))
    /\ match find_time (ptime e) (pents t) with
       | None => rest = pents t /\ new = strip_p e
       | Some old => Permutation (pents t) (old :: rest) /\
           (m = IReplace /\ new = strip_p e \/
            m = IMerge /\ new = mkP (ptime e) (join DASH [plabel old; strip (plabel e)]))
       end.
Proof.
  unfold insert_p, insert_p_core. change (ptime (strip_p e)) with (ptime e).
  change (plabel (strip_p e)) with (strip (plabel e)).
  destruct (find_time (ptime e) (pents t)) as [old|].
  - assert (forall l, remove_first point_eqb old (pents t) = Some l ->
              (forall q, In q l -> In q (pents t)) /\ Permutation (pents t) (old :: l)) as Hr.
    { intros l R. split; [apply (remove_first_incl _ _ _ _ R)|].
      apply (remove_first_perm _ _ _ _ (fun y => proj1 (point_eqb_eq y old)) R). }
    destruct m; [| |discriminate]; (destruct (remove_first point_eqb old (pents t)) as [l|]; [|discriminate]);
      destruct (Hr l eq_refl) as [Hi P]; intros [= <-]; eexists _, l; cbn [pents pname pmin pmax ptime];
      do 5 (split; [reflexivity|]); (split; [exact Hi|]); (split; [exact P|]); [left|right]; split; reflexivity.
  - intros [= <-]. exists (strip_p e), (pents t). cbn [pents pname pmin pmax]. do 5 (split; [reflexivity|]). auto.
Qed.

Lemma insert_p_collide t e m old t' : collides_with t e = Some old -> insert_p t e m = Ok t' ->
  exists new, Permutation (old :: pents t') (new :: pents t) /\
    (m = IReplace /\ new = strip_p e \/
     m = IMerge /\ new = mkP (ptime e) (join DASH [plabel old; strip (plabel e)])).
Proof.
  unfold collides_with. intros C H. destruct (insert_p_inv _ _ _ _ H) as (new & rest & -> & _ & _ & _ & _ & _ & K).
  rewrite C in K. destruct K as [P K]. exists new. split; [|exact K].
  unfold isortp. rewrite isort_snoc_perm, P. apply perm_swap.
Qed.

Theorem insert_p_span t e m t' : wf_ptier t -> insert_p t e m = Ok t' ->
  pmin t' = Z.min (pmin t) (ptime e) /\ pmax t' = Z.max (pmax t) (ptime e).
Proof.
  intros (_ & Ws & _) H. destruct (insert_p_inv _ _ _ _ H) as (new & rest & E & _ & <- & -> & -> & Hsub & _).
  rewrite E. apply isortp_span. rewrite Forall_forall in Ws. auto.
Qed.

Lemma delete_p_span t e t' : delete_p t e = Ok t' -> pname t' = pname t /\ pmin t' = pmin t /\ pmax t' = pmax t.
Proof. unfold delete_p. destruct (remove_first _ _ _); [|discriminate]. intros [= <-]. auto. Qed.

Lemma insert_p_wf t e m t' : wf_ptier t -> insert_p t e m = Ok t' -> wf_ptier t'.
Proof.
  intros (Hw & Hs & Hl) E. destruct (insert_p_span t e m t' (conj Hw (conj Hs Hl)) E) as [Emin Emax].
  destruct (insert_p_inv _ _ _ _ E) as (new & rest & Ep & _ & Hn & _ & _ & Hsub & K).
  rewrite Forall_forall in Hs, Hl.
  assert (stripped (plabel new)) as Ln.
  { destruct (find_time (ptime e) (pents t)) as [old|] eqn:F; [|destruct K as [_ ->]; apply strip_stripped].
    destruct K as [_ [[_ ->]|[_ ->]]]; [apply strip_stripped|].
    apply (stripped_join2 _ 45%N); [apply Hl, (find_time_In _ _ _ F)|apply strip_stripped|reflexivity]. }
  unfold wf_ptier. rewrite Emin, Emax, Ep. split; [apply isortp_wf|].
  split; apply Forall_forall; intros q Hq; apply isort_In, in_app_or in Hq as [Hq|[<-|[]]];
    [destruct (Hs q (Hsub q Hq)); lia|lia|apply Hl, Hsub, Hq|exact Ln].
Qed.
