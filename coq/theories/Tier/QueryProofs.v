(* Tier/QueryProofs.v -- C15: the queries against what they are documented to return: find as the positions whose
   label passes (the lemma carries the offset of the scan), getNonEntries as the gaps of a well-formed list (they cover
   what lies between first start and last end and no entry covers), exact getValueAtTime on a sorted series,
   intervalOverlapCheck with a percent threshold. *)
From PraatIO Require Import Tier.QueryModel Tier.CtorProofs Tier.SetProofs.

Theorem find_idx_from_spec {A} (p : A -> bool) l : forall n k,
  In k (find_idx_from p n l) <-> exists j x, k = (n + j)%nat /\ nth_error l j = Some x /\ p x = true.
Proof.
  induction l as [|a l IH]; intros n k; cbn [find_idx_from].
  - split; [intros []|intros ([|j] & x & _ & H & _); discriminate].
  - assert (In k (find_idx_from p (S n) l) <->
            exists j x, k = (n + S j)%nat /\ nth_error (a :: l) (S j) = Some x /\ p x = true) as IH'
      by (rewrite IH; setoid_rewrite Nat.add_succ_r; reflexivity).
    destruct (p a) eqn:Ep; cbn [In]; rewrite IH'; split.
    + intros [<-|(j & x & H)]; [exists 0%nat, a; rewrite Nat.add_0_r; auto|exists (S j), x; exact H].
    + intros ([|j] & x & -> & H); [left; apply eq_sym, Nat.add_0_r|right; exists j, x; auto].
    + intros (j & x & H). exists (S j), x. exact H.
    + intros ([|j] & x & -> & H & Hp); [injection H as <-; congruence|exists j, x; auto].
Qed.

Lemma find_i_spec t q sub k :
  In k (find_i t q sub) <->
  exists i, nth_error (ients t) k = Some i /\ (if sub then contains q (ilabel i) else text_eqb (ilabel i) q) = true.
Proof.
  unfold find_i. rewrite find_idx_from_spec. cbn [Nat.add]. split.
  - intros (j & i & -> & H). now exists i.
  - intros (i & H). now exists k, i.
Qed.

Lemma gaps_cons2 i j l :
  gaps (i :: j :: l) = (if iend i <? istart j then [mkI (iend i) (istart j) []] else []) ++ gaps (j :: l).
Proof. reflexivity. Qed.

Lemma covered_gap a b x : covered (if a <? b then [mkI a b []] else []) x = (a <=? x) && (x <? b).
Proof. destruct (Z.ltb_spec a b); unfold covered, coversb; simpl; lia. Qed.

Lemma covered_within i0 l il x :
  wf_ients (i0 :: l) -> last_opt (i0 :: l) = Some il -> covered (i0 :: l) x = true -> istart i0 <= x < iend il.
Proof.
  intros Hw El C. apply covered_true_iff in C as (k & Hk & Hc).
  pose proof (wf_head_min _ _ Hw) as Hmin. pose proof (wf_last_max _ _ Hw El) as Hmax.
  rewrite Forall_forall in Hmin, Hmax. specialize (Hmin k Hk). specialize (Hmax k Hk). unfold covers in Hc. lia.
Qed.

Lemma gaps_covered l x :
  wf_ients l ->
  covered (gaps l) x =
  match l, last_opt l with
  | i0 :: _, Some il => (istart i0 <=? x) && (x <? iend il) && negb (covered l x)
  | _, _ => false
  end.
Proof.
  induction l as [|i l IH]; intro Hw; [reflexivity|]. destruct l as [|j l'].
  - apply wf_ients_cons in Hw as (Hp & _). simpl. unfold coversb, pos in *. lia.
  - apply wf_ients_cons_adj in Hw as (Hp & Bij & Hw). rewrite gaps_cons2, covered_app, covered_gap, (IH Hw).
    change (last_opt (i :: j :: l')) with (last_opt (j :: l')).
    destruct (last_opt (j :: l')) as [il|] eqn:El; [|apply last_opt_None in El; discriminate].
    pose proof (covered_within j l' il x Hw El) as Hcov.
    pose proof (wf_last_max _ _ Hw El) as Hmax. apply Forall_inv in Hmax.
    assert (pos j) as Pj by (apply wf_ients_cons in Hw; tauto).
    change (covered (i :: j :: l') x) with (coversb i x || covered (j :: l') x).
    unfold before, pos, coversb in *. destruct (covered (j :: l') x); [specialize (Hcov eq_refl)|]; lia.
Qed.

Lemma gaps_pos l : wf_ients l -> Forall pos (gaps l).
Proof.
  induction l as [|a r IH]; intro Hw; [constructor|]. destruct r as [|b r']; [constructor|].
  apply wf_ients_cons in Hw as (_ & _ & Hw'). rewrite gaps_cons2.
  apply Forall_app. split; [|apply IH, Hw'].
  destruct (Z.ltb_spec (iend a) (istart b)); constructor; [unfold pos; simpl; lia|constructor].
Qed.

Theorem non_entries_tile t ne x :
  wf_itier t -> 0 <= imin t -> non_entries t = Ok ne ->
  Forall pos ne /\
  (covered ne x = (0 <=? x) && (x <? imax t) && negb (covered (ients t) x)).
Proof.
  intros (Hw & Hs & _) H0. unfold non_entries.
  destruct (ients t) as [|i0 l] eqn:El; [discriminate|].
  destruct (last_opt (i0 :: l)) as [il|] eqn:Ela; [|discriminate]. intros [= <-].
  rewrite Forall_forall in Hs.
  destruct (Hs i0 (or_introl eq_refl)) as [S0 _]. destruct (Hs il (last_opt_In _ _ Ela)) as [_ S1].
  split.
  - apply Forall_app. split; [destruct (Z.ltb_spec 0 (istart i0)); constructor; [unfold pos; simpl; lia|constructor]|].
    apply Forall_app. split; [exact (gaps_pos (i0 :: l) Hw)|].
    destruct (Z.ltb_spec (iend il) (imax t)); constructor; [unfold pos; simpl; lia|constructor].
  - change (match l with [] => [] | j :: _ => (if iend i0 <? istart j then [mkI (iend i0) (istart j) []] else []) ++ gaps l end)
      with (gaps (i0 :: l)).
    rewrite !covered_app, !covered_gap, (gaps_covered (i0 :: l) x Hw), Ela.
    pose proof (covered_within i0 l il x Hw Ela) as Hc.
    pose proof (wf_last_max _ _ Hw Ela) as Hmax. apply Forall_inv in Hmax.
    assert (pos i0) as P0 by (apply wf_ients_cons in Hw; tauto). unfold pos in P0.
    destruct (covered (i0 :: l) x); [specialize (Hc eq_refl)|]; lia.
Qed.

Theorem vat_exact_spec t l : forall i r i',
  StronglySorted (fun a b => fst a <= fst b) l ->
  vat_exact t l i = (r, i') ->
  match r with
  | Some row => In row l /\ fst row = t
  | None => forall row, In row l -> fst row <> t
  end.
Proof.
  induction l as [|a l IH]; intros i r i' Hs E; simpl in E.
  - injection E as <- _. intros row [].
  - inversion Hs as [|? ? Hs' Hall]; subst.
    destruct (Z.leb_spec t (fst a)).
    + destruct (Z.eqb_spec t (fst a)); injection E as <- _.
      * split; [left; reflexivity|congruence].
      * intros row [<-|Hr]; [congruence|]. rewrite Forall_forall in Hall. specialize (Hall row Hr). lia.
    + specialize (IH _ _ _ Hs' E). destruct r as [row|].
      * destruct IH. split; [right; assumption|assumption].
      * intros row [<-|Hr]; [lia|apply IH, Hr].
Qed.

Theorem overlap_check_percent s e cs ce pn pd :
  0 < pn ->
  overlap_check s e cs ce pn pd 0 false
  = (let ot := Z.max 0 (Z.min e ce - Z.max s cs) in
     (0 <? ot) && (pn * (Z.max e ce - Z.min s cs) <=? ot * pd)).
Proof.
  intro H. unfold overlap_check. cbv zeta. change (0 <? 0) with false.
  destruct (Z.ltb_spec 0 pn); [|lia]. cbn [andb]. cbv iota.
  destruct (0 <? Z.max 0 (Z.min e ce - Z.max s cs)); cbn [andb orb].
  - destruct (pn * (Z.max e ce - Z.min s cs) <=? Z.max 0 (Z.min e ce - Z.max s cs) * pd); reflexivity.
  - reflexivity.
Qed.

(* both thresholds given: the result is the percent condition alone -- once the fraction is reached the final
   disjunction of the source (overlapFlag or ... or percentOverlapFlag or timeOverlapFlag) returns True whatever the
   time threshold says; when it is not reached the time threshold is not consulted.  (An observation about the
   unchanged code, recorded in DESIGN.md; C15 does not say how the two thresholds combine.) *)
Theorem overlap_check_percent_and_time s e cs ce pn pd th :
  0 < pn -> 0 < th ->
  overlap_check s e cs ce pn pd th false = overlap_check s e cs ce pn pd 0 false.
Proof.
  intros H H'. rewrite overlap_check_percent by exact H. unfold overlap_check. cbv zeta.
  destruct (Z.ltb_spec 0 pn); [|lia]. destruct (Z.ltb_spec 0 th); [|lia]. cbn [andb]. cbv iota.
  destruct (0 <? Z.max 0 (Z.min e ce - Z.max s cs)); cbn [andb orb]; [|reflexivity].
  destruct (pn * (Z.max e ce - Z.min s cs) <=? Z.max 0 (Z.min e ce - Z.max s cs) * pd); cbn [andb orb]; [|reflexivity].
  destruct (th <=? Z.max 0 (Z.min e ce - Z.max s cs)); reflexivity.
Qed.
