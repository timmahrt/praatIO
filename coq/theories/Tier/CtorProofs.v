(* Tier/CtorProofs.v -- first what a fold or a map over `res` hands on from
   step to step; then what the tier constructors do: strip the labels, sort,
   widen the given span to the hull of the entries, validate.  On well-formed
   data inside the span all of this is the identity. *)
From PraatIO Require Import Tier.TierModel.

Lemma mapM_Forall2 {A B} (f : A -> res B) l r : mapM f l = Ok r -> Forall2 (fun a b => f a = Ok b) l r.
Proof.
  revert r. induction l as [|a l IH]; intros r E; cbn [mapM] in E; [injection E as <-; constructor|].
  apply bind_ok in E as (b & Ea & E). apply bind_ok in E as (r' & Er & E). injection E as <-.
  constructor; [exact Ea|apply IH, Er].
Qed.

Lemma fold_res_rel {A S} (f : S -> A -> res S) (R : list A -> S -> S -> Prop) :
  (forall s, R [] s s) -> (forall a l s s1 s', f s a = Ok s1 -> R l s1 s' -> R (a :: l) s s') ->
  forall l s s', fold_res f l s = Ok s' -> R l s s'.
Proof.
  intros H0 HS. induction l as [|a l IH]; intros s s' H; cbn [fold_res] in H; [injection H as <-; apply H0|].
  apply bind_ok in H as (s1 & E & H). eauto.
Qed.

Lemma fold_res_inv_Forall {A S} (P : S -> Prop) (Q : A -> Prop) (f : S -> A -> res S) l :
  (forall s x s', P s -> Q x -> f s x = Ok s' -> P s') ->
  Forall Q l -> forall s s', P s -> fold_res f l s = Ok s' -> P s'.
Proof.
  intros Hf HQ s s' Hs H. revert H HQ Hs. apply (fold_res_rel f (fun l s s' => Forall Q l -> P s -> P s')); [auto|].
  intros x l' s0 s1 s2 E IH HQ Hs. apply Forall_cons_iff in HQ as [Hx HQ]. eauto.
Qed.

Lemma fold_res_inv {A S} (P : S -> Prop) (f : S -> A -> res S) l :
  (forall s a s', P s -> f s a = Ok s' -> P s') ->
  forall s s', P s -> fold_res f l s = Ok s' -> P s'.
Proof.
  intro Hf. apply (fold_res_inv_Forall P (fun _ => True)); [intros s a s' Hs _; apply Hf, Hs|apply Forall_forall; auto].
Qed.

Lemma fold_first_none {A} (f : A -> A -> res A) l it :
  match l with [] => Ok None | a :: r => do x <- fold_res f r a; Ok (Some x) end = Ok it -> (it = None <-> l = []).
Proof.
  destruct l as [|a r]; intro H; [injection H as <-; tauto|].
  apply bind_ok in H as (x & _ & [= <-]). split; discriminate.
Qed.

Definition labels_stripped (l : list interval) : Prop := Forall (fun i => stripped (ilabel i)) l.

Lemma labels_stripped_filter p l : labels_stripped l -> labels_stripped (filter p l).
Proof. apply incl_Forall, incl_filter. Qed.

Lemma labels_stripped_flat_map f l :
  (forall i j, In j (f i) -> ilabel j = ilabel i) ->
  labels_stripped l -> labels_stripped (flat_map f l).
Proof.
  intros Hf H. apply Forall_flat_map. eapply Forall_impl; [|exact H]. intros i Hi.
  apply Forall_forall. intros j Hj. now rewrite (Hf i j Hj).
Qed.

Lemma labels_stripped_map g l :
  (forall i, ilabel (g i) = ilabel i) -> labels_stripped l -> labels_stripped (map g l).
Proof. intros Hg H. apply Forall_map. eapply Forall_impl; [|exact H]. intro i. now rewrite Hg. Qed.

Lemma wf_ients_shift d l : wf_ients l -> wf_ients (map (shift d) l).
Proof.
  apply wf_ients_map; [unfold before|unfold pos]; simpl; intros; lia.
Qed.

Lemma map_strip_i_id l : labels_stripped l -> map strip_i l = l.
Proof.
  induction 1 as [|i l Hi _ IH]; simpl; [reflexivity|].
  rewrite IH. f_equal. destruct i; unfold strip_i; simpl in *. now rewrite Hi.
Qed.

Lemma homog_i_id l : wf_ients l -> labels_stripped l -> homog_i l = l.
Proof. intros Hw Hs. unfold homog_i. rewrite map_strip_i_id by exact Hs. apply isorti_wf_id, Hw. Qed.

Lemma map_strip_p_id l : Forall (fun p => stripped (plabel p)) l -> map strip_p l = l.
Proof.
  induction 1 as [|p l Hp _ IH]; simpl; [reflexivity|].
  rewrite IH. f_equal. destruct p; unfold strip_p; simpl in *. now rewrite Hp.
Qed.

Lemma homog_p_id l :
  StronglySorted (lebP pleb) l -> Forall (fun p => stripped (plabel p)) l -> homog_p l = l.
Proof. intros Hs Hl. unfold homog_p. rewrite map_strip_p_id by exact Hl. apply isort_sorted_id, Hs. Qed.

Lemma homog_i_stripped l : labels_stripped (homog_i l).
Proof.
  unfold labels_stripped, homog_i. apply Forall_forall. intros i Hi.
  apply isort_In in Hi. apply in_map_iff in Hi as (j & <- & _). simpl. apply strip_stripped.
Qed.

Lemma homog_p_stripped l : Forall (fun p => stripped (plabel p)) (homog_p l).
Proof.
  unfold homog_p. apply Forall_forall. intros p Hp.
  apply isort_In in Hp. apply in_map_iff in Hp as (q & <- & _). simpl. apply strip_stripped.
Qed.

Lemma homog_p_times l q : In q (homog_p l) -> exists p, In p l /\ ptime q = ptime p.
Proof.
  unfold homog_p, isortp. intro Hq. apply (Permutation_in q (Permutation_sym (isort_perm _ _))) in Hq.
  apply in_map_iff in Hq as (p & <- & Hp). eauto.
Qed.

Lemma homog_i_labels l : Permutation (map ilabel (homog_i l)) (map strip (map ilabel l)).
Proof.
  unfold homog_i, isorti. eapply Permutation_trans; [apply Permutation_map, Permutation_sym, isort_perm|].
  rewrite !map_map. apply Permutation_refl.
Qed.

Lemma homog_p_labels l : Permutation (map plabel (homog_p l)) (map strip (map plabel l)).
Proof.
  unfold homog_p, isortp. eapply Permutation_trans; [apply Permutation_map, Permutation_sym, isort_perm|].
  rewrite !map_map. apply Permutation_refl.
Qed.

Definition hull_min (l : list interval) (mn : Z) : Z :=
  match zmin_list (map istart l ++ [mn]) with Some a => a | None => mn end.

Definition hull_max (l : list interval) (mx : Z) : Z :=
  match zmax_list (map iend l ++ [mx]) with Some a => a | None => mx end.

Lemma zmin_list_app_some l x : exists m, zmin_list (l ++ [x]) = Some m.
Proof. destruct l; simpl; eauto. Qed.

Lemma zmax_list_app_some l x : exists m, zmax_list (l ++ [x]) = Some m.
Proof. destruct l; simpl; eauto. Qed.

Lemma hull_min_spec l mn :
  hull_min l mn <= mn /\ Forall (fun i => hull_min l mn <= istart i) l
  /\ (hull_min l mn = mn \/ exists i, In i l /\ hull_min l mn = istart i).
Proof.
  unfold hull_min. destruct (zmin_list_app_some (map istart l) mn) as (m & E). rewrite E.
  apply zmin_list_spec in E as [Hin Hall]. rewrite Forall_forall in Hall.
  split; [apply Hall, in_or_app; right; left; reflexivity|]. split.
  - apply Forall_forall. intros i Hi. apply Hall, in_or_app. left. apply in_map, Hi.
  - apply in_app_or in Hin as [Hin|[<-|[]]]; [right|left; reflexivity].
    apply in_map_iff in Hin as (i & <- & Hi). eauto.
Qed.

Lemma hull_max_spec l mx :
  mx <= hull_max l mx /\ Forall (fun i => iend i <= hull_max l mx) l
  /\ (hull_max l mx = mx \/ exists i, In i l /\ hull_max l mx = iend i).
Proof.
  unfold hull_max. destruct (zmax_list_app_some (map iend l) mx) as (m & E). rewrite E.
  apply zmax_list_spec in E as [Hin Hall]. rewrite Forall_forall in Hall.
  split; [apply Hall, in_or_app; right; left; reflexivity|]. split.
  - apply Forall_forall. intros i Hi. apply Hall, in_or_app. left. apply in_map, Hi.
  - apply in_app_or in Hin as [Hin|[<-|[]]]; [right|left; reflexivity].
    apply in_map_iff in Hin as (i & <- & Hi). eauto.
Qed.

Lemma hull_in_span l mn mx : Forall (in_span mn mx) l -> hull_min l mn = mn /\ hull_max l mx = mx.
Proof.
  intro H. rewrite Forall_forall in H. split.
  - destruct (hull_min_spec l mn) as (H1 & _ & [E|(i & Hi & E)]); [exact E|]. destruct (H i Hi). lia.
  - destruct (hull_max_spec l mx) as (H1 & _ & [E|(i & Hi & E)]); [exact E|]. destruct (H i Hi). lia.
Qed.

Lemma hull_min_wf i l mn : wf_ients (i :: l) -> hull_min (i :: l) mn = Z.min mn (istart i).
Proof.
  intro Hw. destruct (hull_min_spec (i :: l) mn) as (H1 & H2 & H3).
  inversion H2 as [|? ? Hi _]; subst.
  destruct H3 as [E|(j & Hj & E)]; [lia|].
  destruct Hj as [<-|Hj]; [lia|].
  apply wf_ients_cons in Hw as (Hp & Hb & Hw'). rewrite Forall_forall in Hb.
  specialize (Hb j Hj). unfold before, pos in *. lia.
Qed.

Lemma last_opt_app {A} (l : list A) x : last_opt (l ++ [x]) = Some x.
Proof. apply last_opt_snoc. Qed.

Lemma hull_max_wf l il mx : wf_ients l -> last_opt l = Some il -> hull_max l mx = Z.max mx (iend il).
Proof.
  intros Hw Hl. destruct (hull_max_spec l mx) as (H1 & H2 & H3).
  pose proof (wf_last_max _ _ Hw Hl) as Hm. rewrite Forall_forall in H2, Hm.
  pose proof (H2 il (last_opt_In _ _ Hl)).
  destruct H3 as [E|(j & Hj & E)]; [lia|]. specialize (Hm j Hj). lia.
Qed.

Lemma new_itier_hull name l mn mx :
  wf_ients l -> labels_stripped l ->
  new_itier name l (Some mn) (Some mx) = Ok (mkIT name l (hull_min l mn) (hull_max l mx)).
Proof.
  intros Hw Hs. unfold new_itier. rewrite (homog_i_id l Hw Hs). simpl opt_list.
  unfold hull_min, hull_max.
  destruct (zmin_list_app_some (map istart l) mn) as (a & ->).
  destruct (zmax_list_app_some (map iend l) mx) as (b & ->).
  apply sorted_disjb_spec in Hw. now rewrite Hw.
Qed.

Lemma new_itier_id name l mn mx :
  wf_itier (mkIT name l mn mx) -> new_itier name l (Some mn) (Some mx) = Ok (mkIT name l mn mx).
Proof.
  intros (Hw & Hs & Hl). simpl in *. rewrite new_itier_hull by assumption.
  now destruct (hull_in_span _ _ _ Hs) as [-> ->].
Qed.

Lemma new_itier_wf name l mn mx t : new_itier name l mn mx = Ok t -> wf_itier t.
Proof.
  unfold new_itier. set (l' := homog_i l).
  destruct (zmin_list (map istart l' ++ opt_list mn)) as [a|] eqn:Ea; [|discriminate].
  destruct (zmax_list (map iend l' ++ opt_list mx)) as [b|] eqn:Eb; [|discriminate].
  destruct (sorted_disjb l') eqn:Es; [|discriminate]. intros [= <-].
  unfold wf_itier; simpl. split; [apply sorted_disjb_spec, Es|]. split; [|apply homog_i_stripped].
  apply zmin_list_spec in Ea as [_ Ha]. apply zmax_list_spec in Eb as [_ Hb].
  rewrite Forall_forall in *. intros i Hi. split.
  - apply Ha, in_or_app. left. apply in_map, Hi.
  - apply Hb, in_or_app. left. apply in_map, Hi.
Qed.

Lemma new_itier_name name l mn mx t : new_itier name l mn mx = Ok t -> iname t = name.
Proof.
  unfold new_itier. destruct (zmin_list _); [|discriminate]. destruct (zmax_list _); [|discriminate].
  destruct (sorted_disjb _); [|discriminate]. now intros [= <-].
Qed.

Lemma new_itier_ents name l mn mx t : new_itier name l mn mx = Ok t -> ients t = homog_i l.
Proof.
  unfold new_itier. destruct (zmin_list _); [|discriminate]. destruct (zmax_list _); [|discriminate].
  destruct (sorted_disjb _); [|discriminate]. now intros [= <-].
Qed.

(* the constructor leaves alone a list that is already in order: positivity comes from its own validation *)
Lemma new_itier_chain name l mn mx t :
  new_itier name l mn mx = Ok t -> labels_stripped l -> StronglySorted before l -> ients t = l.
Proof.
  intros E Ll Chain. pose proof (new_itier_wf _ _ _ _ _ E) as ((Hp & _) & _).
  rewrite (new_itier_ents _ _ _ _ _ E) in *. unfold homog_i in *. rewrite (map_strip_i_id l Ll) in *.
  apply isorti_wf_id. split; [|exact Chain].
  rewrite Forall_forall in *. intros i Hi. apply Hp, isort_In, Hi.
Qed.

Lemma copy_itier_wf t : wf_itier t -> copy_itier t = Ok t.
Proof. destruct t. apply new_itier_id. Qed.

Lemma flat_map_wf_itier tau f name t mn mx :
  (forall x y, x <= y -> tau x <= tau y) -> pieces_ok tau f ->
  (forall i j, In j (f i) -> ilabel j = ilabel i) ->
  wf_itier t -> mn <= tau (imin t) -> tau (imax t) <= mx ->
  wf_itier (mkIT name (flat_map f (ients t)) mn mx).
Proof.
  intros M Hf Hlab (Hw & Hs & Hl) Hmn Hmx.
  split; [exact (flat_map_wf tau f _ M Hf Hw)|]. split; [|exact (labels_stripped_flat_map f _ Hlab Hl)].
  eapply Forall_impl; [|exact (flat_map_in_span tau f _ _ _ M Hf (proj1 Hw) Hs)].
  unfold in_span. simpl. intros; lia.
Qed.

Lemma new_ptier_wf name l mn mx t : new_ptier name l mn mx = Ok t -> wf_ptier t.
Proof.
  unfold new_ptier. set (l' := homog_p l).
  destruct (zmin_list (map ptime l' ++ opt_list mn ++ opt_list mx)) as [a|] eqn:Ea; [|discriminate].
  destruct (zmax_list (map ptime l' ++ opt_list mn ++ opt_list mx)) as [b|] eqn:Eb; [|discriminate].
  intros [= <-]. unfold wf_ptier; simpl. split; [|split; [|apply homog_p_stripped]].
  - apply pleb_sorted_wf_pents. apply isort_sorted; [apply pleb_total|apply pleb_trans].
  - apply zmin_list_spec in Ea as [_ Ha]. apply zmax_list_spec in Eb as [_ Hb].
    rewrite Forall_forall in *. intros p Hp. split.
    + apply Ha, in_or_app. left. apply in_map, Hp.
    + apply Hb, in_or_app. left. apply in_map, Hp.
Qed.

Lemma new_ptier_name name l mn mx t : new_ptier name l mn mx = Ok t -> pname t = name.
Proof.
  unfold new_ptier. destruct (zmin_list _); [|discriminate]. destruct (zmax_list _); [|discriminate].
  now intros [= <-].
Qed.

Lemma new_ptier_ents name l mn mx t : new_ptier name l mn mx = Ok t -> pents t = homog_p l.
Proof.
  unfold new_ptier. destruct (zmin_list _); [|discriminate]. destruct (zmax_list _); [|discriminate].
  now intros [= <-].
Qed.

(* the span of a point tier built with both bounds given: they and the entries' times decide it *)
Lemma new_ptier_bounds name l mn mx t lo hi : new_ptier name l (Some mn) (Some mx) = Ok t ->
  lo <= Z.min mn mx -> Z.max mn mx <= hi -> (forall p, In p l -> lo <= ptime p <= hi) ->
  lo <= pmin t <= Z.min mn mx /\ Z.max mn mx <= pmax t <= hi.
Proof.
  intros H Hlo Hhi Hin. unfold new_ptier in H. cbn [opt_list] in H.
  set (all := map ptime (homog_p l) ++ [mn] ++ [mx]) in H.
  assert (forall y, In y all -> lo <= y <= hi) as Hall.
  { intros y Hy. apply in_app_or in Hy as [Hy|[<-|[<-|[]]]]; try lia.
    apply in_map_iff in Hy as (q & <- & Hq). apply homog_p_times in Hq as (p & Hp & ->). auto. }
  assert (In mn all /\ In mx all) as [Imn Imx] by (split; apply in_or_app; right; cbn; auto).
  destruct (zmin_list all) as [a|] eqn:Ea; [|discriminate]. destruct (zmax_list all) as [b|] eqn:Eb; [|discriminate].
  injection H as <-. cbn [pmin pmax].
  apply zmin_list_spec in Ea as [A1 A2]. apply zmax_list_spec in Eb as [B1 B2]. rewrite Forall_forall in A2, B2.
  pose proof (A2 _ Imn). pose proof (A2 _ Imx). pose proof (B2 _ Imn). pose proof (B2 _ Imx).
  pose proof (Hall _ A1). pose proof (Hall _ B1). lia.
Qed.

Lemma new_ptier_span name l mn mx t : mn <= mx -> (forall p, In p l -> mn <= ptime p <= mx) ->
  new_ptier name l (Some mn) (Some mx) = Ok t -> pmin t = mn /\ pmax t = mx.
Proof. intros Hle Hin H. pose proof (new_ptier_bounds _ _ _ _ _ mn mx H ltac:(lia) ltac:(lia) Hin). lia. Qed.

Lemma copy_ptier_same t t0 : wf_ptier t -> pmin t <= pmax t -> copy_ptier t = Ok t0 ->
  pmin t0 = pmin t /\ pmax t0 = pmax t /\ forall p, In p (pents t0) -> pmin t <= ptime p <= pmax t.
Proof.
  intros (_ & Wsp & _) Hle H. rewrite Forall_forall in Wsp.
  destruct (new_ptier_span _ _ _ _ _ Hle Wsp H) as [A B]. split; [exact A|]. split; [exact B|].
  destruct (new_ptier_wf _ _ _ _ _ H) as (_ & Sp & _). rewrite Forall_forall, A, B in Sp. exact Sp.
Qed.

Lemma new_ptier_bounded name l mn mx :
  mn <= mx -> (forall p, In p l -> mn <= ptime p <= mx) ->
  new_ptier name l (Some mn) (Some mx) = Ok (mkPT name (homog_p l) mn mx).
Proof.
  intros Hmm Hb. assert (exists t, new_ptier name l (Some mn) (Some mx) = Ok t) as (t & E).
  { unfold new_ptier. simpl opt_list. destruct (map ptime (homog_p l)); simpl; eauto. }
  rewrite E. destruct (new_ptier_span _ _ _ _ _ Hmm Hb E) as [<- <-].
  rewrite <- (new_ptier_ents _ _ _ _ _ E), <- (new_ptier_name _ _ _ _ _ E). now destruct t.
Qed.
