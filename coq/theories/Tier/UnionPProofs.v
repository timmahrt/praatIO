(* Tier/UnionPProofs.v -- PointTier.union: the time points of the result are exactly those of either operand; with distinct times in each operand,
   a time both have carries the two labels joined, a time only one has keeps its label *)
From PraatIO Require Import Tier.TierModel Tier.Interval Tier.CtorProofs Tier.InsertPProofs.
Open Scope Z_scope.

Definition ptimes (l : list point) : list Z := map ptime l.

Lemma isortp_times l x : In x (ptimes (isortp l)) <-> In x (ptimes l).
Proof.
  unfold ptimes. split; intro H; apply in_map_iff in H as (p & <- & Hp); apply in_map.
  - now apply isort_In in Hp.
  - apply (Permutation_in p (isort_perm pleb l)), Hp.
Qed.

Lemma insert_p_merge_times t e t' : insert_p t e IMerge = Ok t' ->
  forall x, In x (ptimes (pents t')) <-> In x (ptimes (pents t)) \/ x = ptime e.
Proof.
  intros H x. destruct (insert_p_inv _ _ _ _ H) as (new & rest & -> & _ & Hn & _ & _ & _ & K). unfold ptimes.
  rewrite (Permutation_map ptime (isort_snoc_perm pleb rest new)). cbn [map In]. rewrite Hn.
  destruct (find_time (ptime e) (pents t)) as [old|] eqn:F.
  - destruct K as [P _]. apply find_time_In in F as [_ Ho].
    rewrite (Permutation_map ptime P). cbn [map In]. rewrite Ho.
    split; [intros [G|G]|intros [[G|G]|G]]; auto.
  - destruct K as [-> _]. split; [intros [G|G]|intros [G|G]]; auto.
Qed.

Lemma copy_ptier_times t t' : copy_ptier t = Ok t' -> forall x, In x (ptimes (pents t')) <-> In x (ptimes (pents t)).
Proof.
  intros C x. rewrite (new_ptier_ents _ _ _ _ _ C). unfold homog_p. rewrite isortp_times. unfold ptimes. rewrite map_map.
  reflexivity.
Qed.

(* union, taken apart: a copy of A, B's points merged into it one by one, a final sort *)
Lemma union_p_inv A B t' : union_p A B = Ok t' ->
  exists A0 r, copy_ptier A = Ok A0 /\ fold_res (fun t e => insert_p t e IMerge) (pents B) A0 = Ok r
               /\ pents t' = isortp (pents r).
Proof.
  intro H. apply bind_ok in H as (A0 & C & H). apply bind_ok in H as (r & F & H). injection H as <-. now exists A0, r.
Qed.

Theorem union_p_times A B t' : union_p A B = Ok t' ->
  forall x, In x (ptimes (pents t')) <-> In x (ptimes (pents A)) \/ In x (ptimes (pents B)).
Proof.
  intros H x. destruct (union_p_inv _ _ _ H) as (A0 & r & C & F & ->).
  rewrite isortp_times, <- (copy_ptier_times _ _ C x). revert F.
  apply (fold_res_rel _ (fun l A0 r => In x (ptimes (pents r)) <-> In x (ptimes (pents A0)) \/ In x (ptimes l))).
  - intro s. cbn. tauto.
  - intros e l s s1 s' I IH. rewrite IH, (insert_p_merge_times _ _ _ I x). unfold ptimes. cbn [map In].
    split; [intros [[G|G]|G]|intros [G|[G|G]]]; auto.
Qed.

Lemma find_time_unique l : NoDup (ptimes l) -> forall p, In p l -> find_time (ptime p) l = Some p.
Proof.
  induction l as [|q l IH]; intros ND p Hp; [destruct Hp|]. cbn [ptimes map] in ND. inversion ND as [|? ? NI ND']; subst.
  cbn [find_time]. destruct Hp as [->|Hp].
  - now rewrite Z.eqb_refl.
  - destruct (ptime q =? ptime p) eqn:E; [|apply IH; assumption].
    exfalso. apply NI. apply Z.eqb_eq in E. rewrite E. now apply in_map.
Qed.

Lemma find_time_perm l l' x : NoDup (ptimes l) -> Permutation l l' -> find_time x l = find_time x l'.
Proof.
  intros ND P.
  assert (NoDup (ptimes l')) as ND' by (eapply Permutation_NoDup; [apply Permutation_map, P|exact ND]).
  destruct (find_time x l) as [p|] eqn:F.
  - destruct (find_time_In _ _ _ F) as [Hin <-]. symmetry. apply find_time_unique; [exact ND'|].
    apply (Permutation_in p P), Hin.
  - destruct (find_time x l') as [p|] eqn:F'; [|reflexivity].
    destruct (find_time_In _ _ _ F') as [Hin <-].
    apply (Permutation_in p (Permutation_sym P)) in Hin.
    now rewrite (find_time_unique l ND p Hin) in F.
Qed.

Definition lab_p (l : list point) (x : Z) : option text := option_map plabel (find_time x l).

Lemma lab_p_perm l l' x : NoDup (ptimes l) -> Permutation l l' -> lab_p l x = lab_p l' x.
Proof. intros ND P. unfold lab_p. now rewrite (find_time_perm l l' x ND P). Qed.

Lemma lab_p_cons e l x : lab_p (e :: l) x = if ptime e =? x then Some (plabel e) else lab_p l x.
Proof. unfold lab_p. cbn [find_time]. now destruct (ptime e =? x). Qed.

(* the label a time carries after a merge: old-new where both tiers have a point, the new label trimmed as
   insertEntry trims it *)
Definition merge_lab (a b : option text) : option text :=
  match a, b with
  | Some a, Some b => Some (join DASH [a; strip b])
  | Some a, None => Some a
  | None, Some b => Some (strip b)
  | None, None => None
  end.

Lemma merge_lab_None a : merge_lab a None = a.
Proof. now destruct a. Qed.

(* with distinct times a tier is determined, as a label function, by its set of points: so it is enough to know
   that the new point joined the points that stayed *)
Lemma insert_p_merge_labels t e t' : NoDup (ptimes (pents t)) -> insert_p t e IMerge = Ok t' ->
  NoDup (ptimes (pents t'))
  /\ forall x, lab_p (pents t') x = merge_lab (lab_p (pents t) x) (lab_p [e] x).
Proof.
  intros ND H. destruct (insert_p_inv _ _ _ _ H) as (new & rest & Ep & _ & Hn & _ & _ & _ & K).
  assert (Permutation (new :: rest) (pents t')) as P' by (rewrite Ep; symmetry; apply isort_snoc_perm).
  assert (~ In (ptime e) (ptimes rest) ->
          NoDup (ptimes rest) -> NoDup (ptimes (pents t')) /\
          forall x, lab_p (pents t') x = if ptime e =? x then Some (plabel new) else lab_p rest x) as Hnew.
  { intros NI NDr. assert (NoDup (ptimes (new :: rest))) as ND2 by (constructor; [now rewrite Hn|exact NDr]).
    split; [exact (Permutation_NoDup (Permutation_map ptime P') ND2)|].
    intro x. now rewrite <- (lab_p_perm _ _ x ND2 P'), lab_p_cons, Hn. }
  destruct (find_time (ptime e) (pents t)) as [old|] eqn:F.
  - destruct K as [P [[? _]|[_ ->]]]; [discriminate|]. apply find_time_In in F as [_ Ho].
    pose proof (Permutation_NoDup (Permutation_map ptime P) ND) as ND1. inversion ND1 as [|? ? NI NDr]; subst.
    rewrite Ho in NI. destruct (Hnew NI NDr) as [N L]. split; [exact N|]. intro x.
    rewrite L, (lab_p_perm _ _ x ND P), !lab_p_cons, Ho.
    destruct (ptime e =? x); [reflexivity|symmetry; apply merge_lab_None].
  - destruct K as [-> ->]. apply find_time_none in F. destruct (Hnew F ND) as [N L]. split; [exact N|]. intro x.
    rewrite L, lab_p_cons. destruct (Z.eqb_spec (ptime e) x) as [<-|]; [|symmetry; apply merge_lab_None].
    unfold lab_p. apply find_time_none in F. now rewrite F.
Qed.

Lemma copy_ptier_labels t t' : NoDup (ptimes (pents t)) -> copy_ptier t = Ok t' ->
  NoDup (ptimes (pents t')) /\ forall x, lab_p (pents t') x = option_map strip (lab_p (pents t) x).
Proof.
  intros ND C. rewrite (new_ptier_ents _ _ _ _ _ C). unfold homog_p.
  assert (ptimes (map strip_p (pents t)) = ptimes (pents t)) as Et by (unfold ptimes; now rewrite map_map).
  assert (NoDup (ptimes (map strip_p (pents t)))) as ND1 by now rewrite Et.
  split; [eapply Permutation_NoDup; [apply Permutation_map, (isort_perm pleb)|exact ND1]|].
  intro x. unfold lab_p, isortp. rewrite <- (find_time_perm _ _ x ND1 (isort_perm pleb _)).
  clear. induction (pents t) as [|p l IH]; [reflexivity|]. cbn [map find_time].
  change (ptime (strip_p p)) with (ptime p). destruct (ptime p =? x); [reflexivity|exact IH].
Qed.

Theorem union_p_labels A B t' :
  NoDup (ptimes (pents A)) -> NoDup (ptimes (pents B)) -> union_p A B = Ok t' ->
  forall x, lab_p (pents t') x =
    match lab_p (pents A) x, lab_p (pents B) x with
    | Some a, Some b => Some (join DASH [strip a; strip b])
    | Some a, None => Some (strip a)
    | None, Some b => Some (strip b)
    | None, None => None
    end.
Proof.
  intros NA NB H x. destruct (union_p_inv _ _ _ H) as (A0 & r & C & F & ->).
  destruct (copy_ptier_labels _ _ NA C) as [N0 L0].
  assert (NoDup (ptimes (pents r)) /\ lab_p (pents r) x = merge_lab (lab_p (pents A0) x) (lab_p (pents B) x))
    as [Nr Lr].
  { revert F NB N0. clear.
    apply (fold_res_rel _ (fun l A0 r => NoDup (ptimes l) -> NoDup (ptimes (pents A0)) ->
             NoDup (ptimes (pents r)) /\ lab_p (pents r) x = merge_lab (lab_p (pents A0) x) (lab_p l x))).
    - intros s _ N0. split; [exact N0|]. symmetry. apply merge_lab_None.
    - intros e l s s1 s' I IH NB N0. cbn [ptimes map] in NB. inversion NB as [|? ? NI NB']; subst.
      destruct (insert_p_merge_labels _ _ _ N0 I) as [N1 L1].
      destruct (IH NB' N1) as [Nr Lr]. split; [exact Nr|]. rewrite Lr, (L1 x), !lab_p_cons.
      destruct (Z.eqb_spec (ptime e) x) as [<-|]; [|now rewrite merge_lab_None].
      assert (lab_p l (ptime e) = None) as -> by (unfold lab_p; apply find_time_none in NI; now rewrite NI).
      apply merge_lab_None. }
  unfold lab_p at 1, isortp. rewrite <- (find_time_perm _ _ x Nr (isort_perm pleb _)). fold (lab_p (pents r) x).
  rewrite Lr, (L0 x). destruct (lab_p (pents A) x), (lab_p (pents B) x); reflexivity.
Qed.
