(* Tier/AdjustProofs.v -- C14: dejitter and morph.  The reference times form a strictly increasing list; in such a
   list the nearest reference is monotone in the target, so snapping is monotone and the entries keep their order.
   morph is one cumulative shift, used through its one-step equation morph_go_cons. *)
From PraatIO Require Import Tier.TierModel Tier.CtorProofs.

Lemma dedup_sorted_cons2 a b l :
  dedup_sorted (a :: b :: l) = if a =? b then dedup_sorted (b :: l) else a :: dedup_sorted (b :: l).
Proof. reflexivity. Qed.

Lemma dedup_sorted_In x l : In x (dedup_sorted l) -> In x l.
Proof.
  induction l as [|a l IH]; [intros []|]. destruct l as [|b l']; [exact (fun H => H)|].
  rewrite dedup_sorted_cons2. destruct (a =? b).
  - intro H. right. apply IH, H.
  - intros [<-|H]; [left; reflexivity|right; apply IH, H].
Qed.

Lemma dedup_sorted_strict l : StronglySorted Z.le l -> StronglySorted Z.lt (dedup_sorted l).
Proof.
  induction l as [|a l IH]; intro Hs; [constructor|].
  inversion Hs as [|? ? Hs' Hall]; subst. destruct l as [|b l']; [constructor; constructor|].
  rewrite dedup_sorted_cons2. destruct (Z.eqb_spec a b) as [->|Hne]; [apply IH, Hs'|].
  constructor; [apply IH, Hs'|].
  apply Forall_forall. intros x Hx. apply dedup_sorted_In in Hx.
  rewrite Forall_forall in Hall. pose proof (Hall x Hx). pose proof (Hall b (or_introl eq_refl)).
  destruct Hx as [<-|Hx]; [lia|]. inversion Hs' as [|? ? _ Hb]; subst. rewrite Forall_forall in Hb.
  specialize (Hb x Hx). lia.
Qed.

Theorem zsort_uniq_strict l : StronglySorted Z.lt (zsort_uniq l).
Proof.
  unfold zsort_uniq. apply dedup_sorted_strict.
  assert (StronglySorted (lebP Z.leb) (isort Z.leb l)) as H.
  { apply isort_sorted; intros; lia. }
  induction H; constructor; auto. eapply Forall_impl; [|eassumption]. unfold lebP. intros; lia.
Qed.

(* the distance to x, kept folded: below only the order of distances matters, except where abs_past_min says why *)
Definition adist (x r : Z) : Z := Z.abs (r - x).

(* min(refs, key=...) returns the first minimiser; in a strictly increasing list that is the smallest one, and
   past a value that is no nearer than the best so far nothing can be strictly nearer (abs_past_min) *)
Lemma nearest_from_spec x : forall l best, StronglySorted Z.lt (best :: l) ->
  let r := nearest_from x best l in
  In r (best :: l) /\ best <= r /\
  Forall (fun c => adist x r <= adist x c /\ (c < r -> adist x r < adist x c)) (best :: l).
Proof.
  induction l as [|c l IH]; intros best Hs; cbn [nearest_from].
  - split; [now left|]. split; [lia|]. constructor; [lia|constructor].
  - apply StronglySorted_inv in Hs as [Hs' Hall]. pose proof (Forall_inv Hall) as Hbc. cbv beta in Hbc.
    fold (adist x c) (adist x best).
    destruct (Z.ltb_spec (adist x c) (adist x best)) as [Hlt|Hge].
    + destruct (IH c Hs') as (I1 & I2 & I3). split; [now right|]. split; [lia|].
      constructor; [|exact I3]. apply Forall_inv in I3. lia.
    + assert (StronglySorted Z.lt (best :: l)) as Hs2
        by (constructor; [eapply StronglySorted_inv, Hs'|eapply Forall_inv_tail, Hall]).
      destruct (IH best Hs2) as (I1 & I2 & I3). set (r := nearest_from x best l) in *.
      pose proof (Forall_inv I3) as [Hrb _]. cbv beta in Hrb.
      pose proof (abs_past_min x best c r) as Hpast. fold (adist x best) (adist x c) (adist x r) in Hpast.
      split; [destruct I1 as [<-|I1]; [now left|now right; right]|]. split; [exact I2|].
      inversion I3 as [|? ? Hb I3']; subst. constructor; [exact Hb|]. constructor; [|exact I3']. lia.
Qed.

Theorem nearest_spec x refs r :
  StronglySorted Z.lt refs -> nearest x refs = Some r ->
  In r refs
  /\ (forall r', In r' refs -> Z.abs (r - x) <= Z.abs (r' - x))
  /\ (forall r', In r' refs -> r' < r -> Z.abs (r - x) < Z.abs (r' - x)).
Proof.
  intros Hs E. destruct refs as [|b l]; [discriminate|]. injection E as <-.
  destruct (nearest_from_spec x l b Hs) as (I1 & _ & I3). unfold adist in I3. rewrite Forall_forall in I3.
  split; [exact I1|]. split; intros r' Hr'; apply (I3 r' Hr').
Qed.

Theorem nearest_mono refs x1 x2 r1 r2 :
  StronglySorted Z.lt refs -> x1 <= x2 ->
  nearest x1 refs = Some r1 -> nearest x2 refs = Some r2 -> r1 <= r2.
Proof.
  intros Hs Hx E1 E2.
  destruct (nearest_spec x1 refs r1 Hs E1) as (A1 & A2 & A3).
  destruct (nearest_spec x2 refs r2 Hs E2) as (B1 & B2 & B3).
  destruct (Z.le_gt_cases r1 r2) as [|Hgt]; [assumption|exfalso].
  pose proof (A3 r2 B1 Hgt). pose proof (B2 r1 A1). lia.
Qed.

Theorem snap_mono refs d x1 x2 y1 y2 :
  StronglySorted Z.lt refs -> x1 <= x2 ->
  snap refs d x1 = Ok y1 -> snap refs d x2 = Ok y2 -> y1 <= y2.
Proof.
  intros Hs Hx E1 E2. unfold snap in *.
  destruct (nearest x1 refs) as [r1|] eqn:N1; [|discriminate].
  destruct (nearest x2 refs) as [r2|] eqn:N2; [|discriminate].
  injection E1 as <-. injection E2 as <-.
  pose proof (nearest_mono refs x1 x2 r1 r2 Hs Hx N1 N2) as Hr.
  destruct (nearest_spec x1 refs r1 Hs N1) as (A1 & A2 & _).
  destruct (nearest_spec x2 refs r2 Hs N2) as (B1 & B2 & _).
  pose proof (A2 r2 B1) as A. pose proof (B2 r1 A1) as B.
  (* both moved or both untouched: the order of the references, or of the times themselves; one moved:
     had it crossed the other, the other's reference would be as near to it, within d *)
  destruct (Z.leb_spec (Z.abs (x1 - r1)) d); destruct (Z.leb_spec (Z.abs (x2 - r2)) d);
    [exact Hr|clear A; lia|clear B; lia|exact Hx].
Qed.

Definition snap_entry (refs : list Z) (d : Z) (i : interval) : res interval :=
  do s <- snap refs d (istart i); do e <- snap refs d (iend i); Ok (mkI s e (ilabel i)).

Lemma snap_entry_ok refs d i j : snap_entry refs d i = Ok j ->
  snap refs d (istart i) = Ok (istart j) /\ snap refs d (iend i) = Ok (iend j) /\ ilabel j = ilabel i.
Proof.
  unfold snap_entry. destruct (snap refs d (istart i)); [|discriminate].
  destruct (snap refs d (iend i)); [|discriminate]. intros [= <-]. auto.
Qed.

Theorem dejitter_i_spec t refs d t' :
  wf_itier t -> StronglySorted Z.lt refs ->
  dejitter_i t refs d = Ok t' ->
  Forall2 (fun i j => snap_entry refs d i = Ok j) (ients t) (ients t')
  /\ map ilabel (ients t') = map ilabel (ients t)
  /\ length (ients t') = length (ients t)
  /\ wf_itier t'.
Proof.
  intros (Hw & Hs & Hl) Hr E. apply bind_ok in E as (l & Em & E).
  change (mapM (snap_entry refs d) (ients t) = Ok l) in Em.
  pose proof (mapM_Forall2 _ _ _ Em) as F2.
  assert (map ilabel l = map ilabel (ients t)) as Hlab.
  { eapply Forall2_map_eq; [|exact F2]. intros i j H. apply (snap_entry_ok _ _ _ _ H). }
  assert (length l = length (ients t)) as Len by (rewrite <- (map_length ilabel l), Hlab; apply map_length).
  assert (labels_stripped l) as Ll by (apply Forall_map; rewrite Hlab; apply Forall_map, Hl).
  (* snapped ends stay before snapped later starts *)
  assert (StronglySorted before l) as Chain.
  { eapply Forall2_sorted_mono; [|exact F2|exact (proj2 Hw)]. intros a b a' b' Ha Hb B. cbv beta in Ha, Hb.
    apply snap_entry_ok in Ha as (_ & Ea & _). apply snap_entry_ok in Hb as (Sb & _).
    exact (snap_mono _ _ _ _ _ _ Hr B Ea Sb). }
  rewrite (new_itier_chain _ _ _ _ _ E Ll Chain). pose proof (new_itier_wf _ _ _ _ _ E). auto.
Qed.

Lemma dejitter_i_name t refs d t' : dejitter_i t refs d = Ok t' -> iname t' = iname t.
Proof. unfold dejitter_i. destruct (mapM _ (ients t)); [apply new_itier_name|discriminate]. Qed.

Lemma dejitter_p_name t refs d t' : dejitter_p t refs d = Ok t' -> pname t' = pname t.
Proof. unfold dejitter_p. destruct (mapM _ (pents t)); [apply new_ptier_name|discriminate]. Qed.

(* one step of the cumulative adjustment, both choices of the filter at once: d is the new duration *)
Lemma morph_go_cons filt cum s src g tgt :
  morph_go filt cum (s :: src) (g :: tgt) =
  let d := if filt (ilabel s) then iend g - istart g else iend s - istart s in
  mkI (istart s + cum) (istart s + cum + d) (ilabel s)
  :: morph_go filt (cum + (d - (iend s - istart s))) src tgt.
Proof. cbn [morph_go]. destruct (filt (ilabel s)); cbv zeta; [reflexivity|]. now rewrite Z.sub_diag, Z.add_0_r. Qed.

Theorem morph_go_labels filt : forall cum src tgt,
  length src = length tgt -> map ilabel (morph_go filt cum src tgt) = map ilabel src.
Proof.
  intros cum src. revert cum. induction src as [|s src IH]; intros cum [|g tgt] Hlen; try discriminate; [reflexivity|].
  rewrite morph_go_cons. cbn [map ilabel]. injection Hlen as Hlen. now rewrite IH.
Qed.

Theorem morph_go_length filt : forall cum src tgt,
  length src = length tgt -> length (morph_go filt cum src tgt) = length src.
Proof. intros cum src tgt H. now rewrite <- (map_length ilabel), morph_go_labels, map_length. Qed.

Theorem morph_go_durations (filt : text -> bool) : forall cum src tgt,
  length src = length tgt ->
  Forall2 (fun (sg : (interval * interval)%type) r =>
             iend r - istart r = if filt (ilabel (fst sg)) then iend (snd sg) - istart (snd sg)
                                 else iend (fst sg) - istart (fst sg))
          (combine src tgt) (morph_go filt cum src tgt).
Proof.
  intros cum src. revert cum. induction src as [|s src IH]; intros cum [|g tgt] Hlen; try discriminate; [constructor|].
  rewrite morph_go_cons. injection Hlen as Hlen. constructor; [cbn; lia|apply IH, Hlen].
Qed.

(* the distance of each start from the end before it; prev_end stands before the first interval *)
Fixpoint gaps_of (prev_end : Z) (l : list interval) : list Z :=
  match l with
  | [] => []
  | i :: l' => (istart i - prev_end) :: gaps_of (iend i) l'
  end.

Theorem morph_go_gaps filt : forall cum src tgt pe,
  length src = length tgt ->
  gaps_of (pe + cum) (morph_go filt cum src tgt) = gaps_of pe src.
Proof.
  intros cum src. revert cum. induction src as [|s src IH]; intros cum [|g tgt] pe Hlen; try discriminate; [reflexivity|].
  rewrite morph_go_cons. injection Hlen as Hlen. cbv zeta.
  set (d := if filt (ilabel s) then iend g - istart g else iend s - istart s).
  cbn [gaps_of istart iend]. f_equal; [lia|].
  rewrite <- (IH (cum + (d - (iend s - istart s))) tgt (iend s) Hlen). f_equal. lia.
Qed.

(* well-formed source and target: the morphed list is well-formed, so the
   constructor keeps it as is *)
Lemma morph_go_wf filt : forall cum src tgt,
  length src = length tgt -> wf_ients src -> Forall pos tgt -> wf_ients (morph_go filt cum src tgt).
Proof.
  intros cum src. revert cum. induction src as [|s src IH]; intros cum [|g tgt] Hlen Hw Hp; try discriminate;
    [apply wf_ients_nil|].
  injection Hlen as Hlen. inversion Hp as [|? ? Pg Hp']; subst. rewrite morph_go_cons.
  set (d := if filt (ilabel s) then iend g - istart g else iend s - istart s).
  assert (0 < d) as Hd by (apply wf_ients_cons in Hw as (Ps & _); unfold d, pos in *; destruct (filt _); lia).
  destruct src as [|s2 src], tgt as [|g2 tgt]; try discriminate; cbv zeta.
  - apply wf_ients_cons. split; [unfold pos; simpl; lia|]. split; [constructor|apply wf_ients_nil].
  - apply wf_ients_cons_adj in Hw as (_ & B & Hw). specialize (IH (cum + (d - (iend s - istart s))) _ Hlen Hw Hp').
    rewrite morph_go_cons in IH |- *. apply wf_ients_cons_adj. split; [unfold pos; simpl; lia|]. split; [|exact IH].
    unfold before in *. simpl. lia.
Qed.

Theorem morph_i_entries t g filt t' :
  wf_itier t -> Forall pos (ients g) -> morph_i t g filt = Ok t' ->
  ients t' = morph_go filt 0 (ients t) (ients g).
Proof.
  intros (Hw & Hs & Hl) Hg. unfold morph_i.
  destruct (Nat.eqb_spec (length (ients t)) (length (ients g))) as [Hlen|]; [|discriminate]. simpl.
  destruct (last_opt (morph_go _ _ _ _)) as [nl|]; [|discriminate].
  destruct (last_opt (ients t)) as [ol|]; [|discriminate].
  rewrite new_itier_hull; [intros [= <-]; reflexivity|apply morph_go_wf; assumption|].
  apply Forall_map. rewrite (morph_go_labels filt 0 _ _ Hlen). apply Forall_map, Hl.
Qed.
