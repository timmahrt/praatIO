(* Tier/InsertProofs.v -- C11: IntervalTier.insertEntry equals a closed-form collision policy: the matches are the
   entries that overlap the new one, and the new entry, or its hull with the matches, is sorted into the rest.
   Well-formedness of the result (C05) is read off that form. *)
From PraatIO Require Import Tier.TierModel Tier.CtorProofs Tier.CropProofs.

Definition disj (i j : interval) : Prop := iend i <= istart j \/ iend j <= istart i.

Lemma isorti_snoc l x : StronglySorted (lebP ileb) l -> isorti (l ++ [x]) = insert ileb x l.
Proof. apply isort_snoc; [exact ileb_total|exact ileb_trans|exact ileb_antisym]. Qed.

(* on disjoint positive intervals the tuple order is the order in time *)
Lemma ileb_disj x y : pos x -> pos y -> disj x y -> if ileb x y then before x y else before y x.
Proof.
  unfold pos, disj, before, ileb, icmp. intros Hx Hy Hd.
  destruct (istart x ?= istart y) eqn:E.
  - apply Z.compare_eq in E. lia.
  - rewrite Z.compare_lt_iff in E. lia.
  - rewrite Z.compare_gt_iff in E. lia.
Qed.

Lemma insert_wf x l :
  wf_ients l -> pos x -> Forall (disj x) l -> wf_ients (insert ileb x l).
Proof.
  intros [Hp Hs] Hx Hd. split; [apply Forall_insert; auto|]. rewrite Forall_forall in Hp, Hd.
  apply insert_sorted_for; [| |exact Hs].
  - intros y Hy. apply ileb_disj; auto.
  - intros y z Hy _ B1. apply before_trans; auto.
Qed.

Lemma remove_first_head i l : remove_first interval_eqb i (i :: l) = Some l.
Proof. simpl. assert (interval_eqb i i = true) as -> by (apply interval_eqb_eq; reflexivity). reflexivity. Qed.

Lemma delete_all_cons_notin ms i l :
  ~ In i ms ->
  delete_all ms (i :: l) = match delete_all ms l with Ok r => Ok (i :: r) | Err e => Err e end.
Proof.
  revert l. induction ms as [|m ms IH]; intros l Hn; simpl; [reflexivity|].
  destruct (interval_eqb i m) eqn:E.
  - apply interval_eqb_eq in E. subst. exfalso. apply Hn. left; reflexivity.
  - destruct (remove_first interval_eqb m l) as [l'|]; [|reflexivity].
    apply IH. intro H. apply Hn. right; exact H.
Qed.

Lemma delete_all_filter p l :
  wf_ients l -> delete_all (filter p l) l = Ok (filter (fun i => negb (p i)) l).
Proof.
  induction l as [|i l IH]; intro Hw; [reflexivity|].
  pose proof (wf_not_in_tail i l Hw) as Hn.
  apply wf_ients_cons in Hw as (Hp & Hb & Hw). simpl filter.
  destruct (p i); simpl negb; cbn [delete_all].
  - rewrite remove_first_head. apply IH, Hw.
  - rewrite delete_all_cons_notin; [rewrite (IH Hw); reflexivity|].
    intro H. apply filter_In in H as [H _]. contradiction.
Qed.

Definition joint_entry (e : interval) (ms : list interval) : interval :=
  mkI (hull_min ms (istart e)) (hull_max ms (iend e))
      (join DASH (map ilabel (isorti (ms ++ [e])))).

Definition insert_spec (t : itier) (e : interval) (mode : insmode) : res itier :=
  if iend e <=? istart e then Err ArgumentError else
  let ms := filter (overlapsb (istart e) (iend e)) (ients t) in
  let rest := filter (fun i => negb (overlapsb (istart e) (iend e) i)) (ients t) in
  let mk l := Ok (mkIT (iname t) l (Z.min (imin t) (istart e)) (Z.max (imax t) (iend e))) in
  match ms with
  | [] => mk (insert ileb e (ients t))
  | _ :: _ =>
      match mode with
      | IError => Err CollisionError
      | IReplace => mk (insert ileb e rest)
      | IMerge => mk (insert ileb (joint_entry e ms) rest)
      end
  end.

Lemma merged_entry_joint e ms :
  merged_entry (isorti (ms ++ [e])) = Ok (joint_entry e ms).
Proof.
  unfold merged_entry, joint_entry, hull_min, hull_max.
  assert (forall f : interval -> Z, Permutation (map f (isorti (ms ++ [e]))) (map f ms ++ [f e])) as P
    by (intro f; unfold isorti; now rewrite <- (isort_perm ileb), map_app).
  rewrite (zmin_list_perm _ _ (P istart)), (zmax_list_perm _ _ (P iend)).
  destruct (zmin_list_app_some (map istart ms) (istart e)) as (a & ->).
  destruct (zmax_list_app_some (map iend ms) (iend e)) as (b & ->). reflexivity.
Qed.

Lemma joint_entry_nil e : joint_entry e [] = e.
Proof. now destruct e. Qed.

Lemma resort_span_insert name l x mn mx :
  wf_ients l -> pos x -> Forall (disj x) l -> Forall (in_span mn mx) l ->
  resort_span_i name (l ++ [x]) mn mx
  = mkIT name (insert ileb x l) (Z.min mn (istart x)) (Z.max mx (iend x)).
Proof.
  intros Hw Hx Hd Hs. unfold resort_span_i.
  rewrite (isorti_snoc l x (wf_ients_ileb_sorted l Hw)).
  pose proof (insert_wf x l Hw Hx Hd) as Wi. rewrite Forall_forall in Hs.
  destruct (span_grow istart iend (insert ileb x l) l x mn mx) as [-> ->]; [| | |exact Hs|reflexivity].
  - intro y. apply In_insert.
  - intros a r E. rewrite E in *. apply Forall_forall, wf_head_min, Wi.
  - intros b E. apply Forall_forall, (wf_last_max _ _ Wi E).
Qed.

Lemma filter_overlaps a b l : Forall (overlaps a b) (filter (overlapsb a b) l).
Proof. apply Forall_forall. intros i Hi. apply filter_In in Hi as [_ Ho]. unfold overlapsb, overlaps in *. lia. Qed.

Lemma rest_disj e l : wf_ients l ->
  Forall (disj e) (filter (fun i => negb (overlapsb (istart e) (iend e) i)) l).
Proof.
  intros [Hp _]. rewrite Forall_forall in *. intros i Hi. apply filter_In in Hi as [Hi Hn].
  specialize (Hp i Hi). unfold overlapsb, disj, pos in *. lia.
Qed.

(* matches that lie inside a span do not move the hull of e beyond that span *)
Lemma hull_min_sub mn mx ms a : Forall (in_span mn mx) ms -> Z.min mn (hull_min ms a) = Z.min mn a.
Proof.
  intro H. rewrite Forall_forall in H. destruct (hull_min_spec ms a) as (A1 & _ & [E|(m & Hm & E)]); [lia|].
  destruct (H m Hm). lia.
Qed.
Lemma hull_max_sub mn mx ms b : Forall (in_span mn mx) ms -> Z.max mx (hull_max ms b) = Z.max mx b.
Proof.
  intro H. rewrite Forall_forall in H. destruct (hull_max_spec ms b) as (B1 & _ & [E|(m & Hm & E)]); [lia|].
  destruct (H m Hm). lia.
Qed.

Lemma joint_entry_pos e ms : pos e -> pos (joint_entry e ms).
Proof.
  intro He. unfold joint_entry, pos in *; simpl.
  destruct (hull_min_spec ms (istart e)) as (A1 & _). destruct (hull_max_spec ms (iend e)) as (B1 & _). lia.
Qed.

Lemma rest_disj_joint e l : wf_ients l ->
  Forall (disj (joint_entry e (filter (overlapsb (istart e) (iend e)) l)))
         (filter (fun i => negb (overlapsb (istart e) (iend e) i)) l).
Proof.
  intros Hw. apply Forall_forall. intros i Hi. apply filter_In in Hi as [Hi Hn].
  set (ms := filter (overlapsb (istart e) (iend e)) l).
  unfold disj, joint_entry; simpl.
  destruct (hull_min_spec ms (istart e)) as (_ & _ & A3).
  destruct (hull_max_spec ms (iend e)) as (_ & _ & B3).
  assert (pos i) as Hpi by (destruct Hw as [Hp _]; rewrite Forall_forall in Hp; apply Hp, Hi).
  (* a match m and i are distinct members of l, so one lies before the other; m reaches into e, i does not *)
  assert (forall m, In m ms -> overlaps (istart e) (iend e) m /\ (before m i \/ before i m)) as Hms.
  { intros m Hm. pose proof (filter_overlaps (istart e) (iend e) l) as Ho. rewrite Forall_forall in Ho.
    specialize (Ho m Hm). split; [exact Ho|]. apply filter_In in Hm as [Hm Hb].
    destruct (wf_pairwise l m i Hw Hm Hi) as [->|H]; [|exact H]. rewrite Hb in Hn. discriminate. }
  unfold overlapsb in Hn. unfold pos, before, overlaps in *.
  destruct (Z.le_gt_cases (iend i) (istart e)).
  - right. destruct A3 as [->|(m & Hm & ->)]; [lia|]. destruct (Hms m Hm). lia.
  - left. destruct B3 as [->|(m & Hm & ->)]; [lia|]. destruct (Hms m Hm). lia.
Qed.

Theorem insert_i_spec t e mode : wf_itier t -> insert_i_core t e mode = insert_spec t e mode.
Proof.
  intros Hwf. pose proof Hwf as (Hw & Hs & Hl). unfold insert_i_core, insert_spec.
  rewrite (crop_i_spec _ _ _ _ _ Hwf). unfold crop_spec.
  destruct (Z.leb_spec (iend e) (istart e)) as [|He]; [reflexivity|]. cbn [bind ients crop_spec_ents].
  set (ms := filter (overlapsb (istart e) (iend e)) (ients t)).
  set (rest := filter (fun i => negb (overlapsb (istart e) (iend e) i)) (ients t)).
  assert (wf_ients rest) as Wr by (apply wf_ients_filter, Hw).
  assert (Forall (in_span (imin t) (imax t)) rest) as Sr by exact (incl_Forall (incl_filter _ _) Hs).
  pose proof (rest_disj e (ients t) Hw) as Dr. fold rest in Dr.
  destruct ms as [|m0 ms'] eqn:Ems.
  - cbn [bind]. unfold rest in *. rewrite (filter_nil_negb _ _ Ems) in *.
    rewrite resort_span_insert by assumption. reflexivity.
  - rewrite <- Ems. destruct mode; cbn [bind]; [| |reflexivity];
      unfold ms at 1; rewrite delete_all_filter by exact Hw; cbn [bind]; fold rest.
    + rewrite resort_span_insert by assumption. reflexivity.
    + rewrite merged_entry_joint. cbn [bind].
      rewrite resort_span_insert; [|exact Wr|apply joint_entry_pos, He|apply rest_disj_joint; assumption|exact Sr].
      assert (Forall (in_span (imin t) (imax t)) ms) as Sm by exact (incl_Forall (incl_filter _ _) Hs).
      unfold joint_entry at 2 3; cbn [istart iend].
      rewrite (hull_min_sub _ _ _ _ Sm), (hull_max_sub _ _ _ _ Sm). reflexivity.
Qed.

Lemma insert_spec_inv t e mode t' : insert_spec t e mode = Ok t' ->
  pos e /\ exists x,
    t' = mkIT (iname t) (insert ileb x (filter (fun i => negb (overlapsb (istart e) (iend e) i)) (ients t)))
              (Z.min (imin t) (istart e)) (Z.max (imax t) (iend e))
    /\ (x = e \/ x = joint_entry e (filter (overlapsb (istart e) (iend e)) (ients t))).
Proof.
  unfold insert_spec. destruct (Z.leb_spec (iend e) (istart e)) as [|He]; [discriminate|].
  destruct (filter (overlapsb _ _) (ients t)) as [|m0 ms'] eqn:Ems.
  - rewrite (filter_nil_negb _ _ Ems). intros [= <-]. eauto.
  - destruct mode; [| |discriminate]; intros [= <-]; eauto.
Qed.

Lemma insert_spec_merge t e : pos e ->
  insert_spec t e IMerge =
  Ok (mkIT (iname t)
           (insert ileb (joint_entry e (filter (overlapsb (istart e) (iend e)) (ients t)))
                   (filter (fun i => negb (overlapsb (istart e) (iend e) i)) (ients t)))
           (Z.min (imin t) (istart e)) (Z.max (imax t) (iend e))).
Proof.
  intro He. unfold insert_spec. destruct (Z.leb_spec (iend e) (istart e)); [unfold pos in He; lia|].
  destruct (filter (overlapsb _ _) (ients t)) eqn:Ems; [|reflexivity].
  now rewrite joint_entry_nil, (filter_nil_negb _ _ Ems).
Qed.

Lemma insert_spec_wf t e mode t' :
  wf_itier t -> insert_spec t e mode = Ok t' ->
  wf_ients (ients t') /\ Forall (in_span (imin t') (imax t')) (ients t')
  /\ (stripped (ilabel e) -> labels_stripped (ients t')).
Proof.
  intros (Hw & Hs & Hl) E. apply insert_spec_inv in E as (He & x & -> & Hx). cbn [ients imin imax].
  set (ms := filter (overlapsb (istart e) (iend e)) (ients t)) in *.
  set (rest := filter (fun i => negb (overlapsb (istart e) (iend e) i)) (ients t)).
  assert (Forall (in_span (imin t) (imax t)) ms) as Sm by exact (incl_Forall (incl_filter _ _) Hs).
  pose proof (hull_min_sub _ _ _ (istart e) Sm) as Emin. pose proof (hull_max_sub _ _ _ (iend e) Sm) as Emax.
  split; [|split].
  - apply insert_wf; [apply wf_ients_filter, Hw| |]; destruct Hx as [-> | ->];
      [exact He|apply joint_entry_pos, He|apply rest_disj; assumption|apply rest_disj_joint; assumption].
  - apply Forall_insert. split.
    + destruct Hx as [-> | ->]; split; cbn [joint_entry istart iend];
        [apply Z.le_min_r|apply Z.le_max_r|rewrite <- Emin; apply Z.le_min_r|rewrite <- Emax; apply Z.le_max_r].
    + eapply Forall_impl; [|exact (incl_Forall (incl_filter _ _) Hs)]. unfold in_span. intros; lia.
  - intro Le. apply Forall_insert. split; [|apply labels_stripped_filter, Hl].
    destruct Hx as [-> | ->]; [exact Le|]. cbn [joint_entry ilabel]. apply stripped_join_dash, Forall_map.
    apply Forall_forall. intros k Hk. apply isort_In, in_app_or in Hk as [Hk|[<-|[]]]; [|exact Le].
    apply filter_In in Hk as [Hk _]. unfold labels_stripped in Hl. rewrite Forall_forall in Hl. apply Hl, Hk.
Qed.

Lemma strip_i_stripped e : stripped (ilabel e) -> strip_i e = e.
Proof. destruct e as [a b lab]; unfold strip_i; simpl. intros ->. reflexivity. Qed.

Lemma insert_i_stripped t e m : stripped (ilabel e) -> insert_i t e m = insert_i_core t e m.
Proof. intro H. unfold insert_i. now rewrite strip_i_stripped. Qed.

Theorem insert_i_public_spec t e mode : wf_itier t -> insert_i t e mode = insert_spec t (strip_i e) mode.
Proof. intro H. unfold insert_i. apply insert_i_spec, H. Qed.

Lemma insert_i_wf t e m t' : wf_itier t -> insert_i t e m = Ok t' -> wf_itier t'.
Proof.
  intros Hwf E. rewrite (insert_i_public_spec _ _ _ Hwf) in E.
  destruct (insert_spec_wf _ _ _ _ Hwf E) as (W & S & L). split; [exact W|]. split; [exact S|].
  apply L, strip_stripped.
Qed.

Lemma insert_i_error_ok t e t' : wf_itier t -> insert_i t e IError = Ok t' ->
  iname t' = iname t /\ imin t' = Z.min (imin t) (istart e) /\ imax t' = Z.max (imax t) (iend e)
  /\ In (strip_i e) (ients t').
Proof.
  intros W H. rewrite (insert_i_public_spec t e IError W) in H. unfold insert_spec in H.
  destruct (iend (strip_i e) <=? istart (strip_i e)); [discriminate|].
  destruct (filter _ (ients t)); [|discriminate]. injection H as <-. cbn [iname imin imax ients].
  split; [|split; [|split]]; try (destruct e; reflexivity).
  apply (Permutation_in _ (insert_perm ileb (strip_i e) (ients t))). now left.
Qed.

Lemma delete_i_span t e t' : delete_i t e = Ok t' -> iname t' = iname t /\ imin t' = imin t /\ imax t' = imax t.
Proof. unfold delete_i. destruct (remove_first _ _ _); [|discriminate]. intros [= <-]. auto. Qed.
