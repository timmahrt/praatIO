(* Tier/EditProofs.v -- C09: editTimestamps and appendTier move every entry by
   exactly the stated amount. *)
From PraatIO Require Import Tier.TierModel Tier.CtorProofs.

Definition clip0 (i : interval) : interval := mkI (Z.max 0 (istart i)) (iend i) (ilabel i).

(* specification of the entry list: shift, drop what ends at or before 0,
   clip what crosses 0 *)
Definition edit_spec_ents (o : Z) (l : list interval) : list interval :=
  map (fun i => clip0 (shift o i)) (filter (fun i => 0 <? iend i + o) l).

Theorem edit_entries o l : filter_map (edit1 o) l = edit_spec_ents o l.
Proof.
  unfold edit_spec_ents. apply filter_map_map_filter. intro i.
  unfold edit1, clip0, shift; simpl.
  destruct (Z.leb_spec (o + iend i) 0); destruct (Z.ltb_spec 0 (iend i + o)); try lia; [reflexivity|].
  f_equal. f_equal; [|lia]. destruct (Z.ltb_spec (o + istart i) 0); lia.
Qed.

Lemma edit_spec_ents_wf o l : wf_ients l -> wf_ients (edit_spec_ents o l).
Proof.
  intro Hw. apply wf_ients_map; [| |apply wf_ients_filter, Hw].
  - unfold before, clip0, shift. simpl. intros; lia.
  - intros i Hi. apply filter_In in Hi as [_ Hi]. unfold pos, clip0, shift. simpl. lia.
Qed.

(* the source clamps the span to the entries before the constructor does so again *)
Lemma hull_min_pre l mn :
  hull_min l (match zmin_list (map istart l) with Some a => if mn <? a then mn else a | None => mn end)
  = hull_min l mn.
Proof.
  unfold hull_min. rewrite !zmin_list_snoc. destruct (zmin_list (map istart l)) as [a|]; [|reflexivity].
  destruct (Z.ltb_spec mn a); lia.
Qed.
Lemma hull_max_pre l mx :
  hull_max l (match zmax_list (map iend l) with Some b => if b <? mx then mx else b | None => mx end)
  = hull_max l mx.
Proof.
  unfold hull_max. rewrite !zmax_list_snoc. destruct (zmax_list (map iend l)) as [b|]; [|reflexivity].
  destruct (Z.ltb_spec b mx); lia.
Qed.

Theorem edit_i_ok t o mode :
  wf_itier t -> (mode = RError -> edit_i_reports t o = false) ->
  edit_i t o mode =
  Ok (mkIT (iname t) (edit_spec_ents o (ients t))
           (hull_min (edit_spec_ents o (ients t)) (imin t))
           (hull_max (edit_spec_ents o (ients t)) (imax t))).
Proof.
  intros (Hw & Hs & Hl) Hm. unfold edit_i.
  assert ((match mode with RError => true | _ => false end) && edit_i_reports t o = false) as ->.
  { destruct mode; try reflexivity. now rewrite Hm. }
  rewrite edit_entries, new_itier_hull; [now rewrite hull_min_pre, hull_max_pre|apply edit_spec_ents_wf, Hw|].
  apply labels_stripped_map; [reflexivity|apply labels_stripped_filter, Hl].
Qed.

Lemma edit_i_wf t o mode t' : edit_i t o mode = Ok t' -> wf_itier t'.
Proof. unfold edit_i. destruct (_ && _); [discriminate|]. apply new_itier_wf. Qed.

Theorem edit_i_error_iff t o :
  edit_i t o RError = Err OutOfBounds <->
  exists i, In i (ients t) /\ (istart i + o < imin t \/ imax t < iend i + o).
Proof.
  assert (edit_i_reports t o = true <->
          exists i, In i (ients t) /\ (istart i + o < imin t \/ imax t < iend i + o)) as <-.
  { unfold edit_i_reports. rewrite existsb_exists. split; intros (i & Hi & H); exists i; (split; [exact Hi|lia]). }
  unfold edit_i. simpl. destruct (edit_i_reports t o); [tauto|]. split; [|discriminate].
  unfold new_itier. destruct (zmin_list _); [|discriminate]. destruct (zmax_list (_ ++ _)); [|discriminate].
  destruct (sorted_disjb _); discriminate.
Qed.

Theorem edit_span_never_shrinks t o mode t' :
  wf_itier t -> edit_i t o mode = Ok t' -> imin t' <= imin t /\ imax t <= imax t'.
Proof.
  intros Hwf H. rewrite edit_i_ok in H; [|exact Hwf|].
  - injection H as <-. simpl. split; [apply hull_min_spec|apply hull_max_spec].
  - intros ->. unfold edit_i in H. simpl in H. destruct (edit_i_reports t o); [discriminate|reflexivity].
Qed.

Theorem edit_pure_shift o l :
  Forall pos l -> Forall (fun i => 0 <= istart i + o) l -> edit_spec_ents o l = map (shift o) l.
Proof.
  intros Hp Hn. unfold edit_spec_ents.
  induction l as [|i l IH]; [reflexivity|]. inversion Hp; subst. inversion Hn; subst.
  unfold pos in *. simpl. destruct (Z.ltb_spec 0 (iend i + o)); [|lia]. simpl. f_equal; [|apply IH; assumption].
  unfold clip0, shift; simpl. f_equal. lia.
Qed.

Theorem edit_roundtrip o l :
  Forall pos l -> Forall (fun i => 0 <= istart i) l -> Forall (fun i => 0 <= istart i + o) l ->
  edit_spec_ents (- o) (edit_spec_ents o l) = l.
Proof.
  intros Hp H0 Hn. rewrite (edit_pure_shift o l Hp Hn). rewrite edit_pure_shift.
  - rewrite map_map. rewrite <- (map_id l) at 2. apply map_ext. intros [s e lab]. unfold shift; simpl. f_equal; lia.
  - apply Forall_map. eapply Forall_impl; [|exact Hp]. unfold pos, shift. simpl. intros; lia.
  - apply Forall_map. eapply Forall_impl; [|exact H0]. unfold shift. simpl. intros; lia.
Qed.

Theorem append_i_ok A B :
  wf_itier A -> wf_itier B -> imin A <= imax A -> 0 <= imax A -> 0 <= imin B -> 0 <= imax B ->
  append_i A B =
  Ok (mkIT (iname A) (ients A ++ map (shift (imax A)) (ients B)) (imin A) (imax A + imax B)).
Proof.
  intros HA HB HAs H0 HB0 HB1. pose proof HA as (WA & SA & LA). pose proof HB as (WB & SB & LB).
  unfold append_i. rewrite edit_i_ok by (assumption || discriminate). cbn [bind ients].
  assert (Forall (fun i => 0 <= istart i + imax A) (ients B)) as Hn
      by (eapply Forall_impl; [|exact SB]; unfold in_span; intros; lia).
  rewrite (edit_pure_shift _ _ (proj1 WB) Hn). apply new_itier_id.
  rewrite Forall_forall in SA, SB. split; [|split]; simpl.
  - apply wf_ients_app; [exact WA|apply wf_ients_shift, WB|].
    intros i j Hi Hj. apply in_map_iff in Hj as (k & <- & Hk).
    destruct (SA i Hi), (SB k Hk). unfold before, shift; simpl. lia.
  - apply Forall_app. split; apply Forall_forall.
    + intros i Hi. destruct (SA i Hi). split; lia.
    + intros j Hj. apply in_map_iff in Hj as (k & <- & Hk).
      destruct (SB k Hk). unfold in_span, shift; simpl. lia.
  - apply Forall_app. split; [exact LA|]. apply labels_stripped_map; [reflexivity|exact LB].
Qed.

Lemma edit_i_name t o m t' : edit_i t o m = Ok t' -> iname t' = iname t.
Proof. unfold edit_i. destruct (_ && _); [discriminate|apply new_itier_name]. Qed.

Lemma edit_p_name t o m t' : edit_p t o m = Ok t' -> pname t' = pname t.
Proof. unfold edit_p. destruct (_ && _); [discriminate|apply new_ptier_name]. Qed.
