(* Check/Common.v -- helpers shared by the boolean oracles. *)
From PraatIO Require Export Tier.TierModel.

Lemma res_eqb_eq {A} (eqb : A -> A -> bool) (H : forall x y, eqb x y = true <-> x = y) r s :
  res_eqb eqb r s = true <-> r = s.
Proof. exact (res_eqb_eq eqb H r s). Qed.

Definition olab_eqb := option_eqb text_eqb.

(* all boundaries of an entry list *)
Definition bounds (l : list interval) : list Z := flat_map (fun i => [istart i; iend i]) l.

(* two label functions agree at every sample point p and p-1 *)
Definition labfun_eqb (f g : Z -> option text) (pts : list Z) : bool :=
  forallb (fun p => olab_eqb (f p) (g p) && olab_eqb (f (p - 1)) (g (p - 1))) pts.

Definition mem_i (i : interval) (l : list interval) : bool := existsb (interval_eqb i) l.
Definition mem_p (p : point) (l : list point) : bool := existsb (point_eqb p) l.

Lemma mem_i_In i l : mem_i i l = true <-> In i l.
Proof.
  unfold mem_i. rewrite existsb_exists. split.
  - intros (j & Hj & E). apply interval_eqb_eq in E. now subst.
  - intro H. exists i. split; [exact H|apply interval_eqb_eq; reflexivity].
Qed.

Definition is_err {A} (e : err) (r : res A) : bool :=
  match r with Err e' => err_eqb e e' | Ok _ => false end.

Fixpoint sorted_strictb (l : list Z) : bool :=
  match l with
  | x :: l' => match l' with y :: _ => (x <? y) && sorted_strictb l' | [] => true end
  | [] => true
  end.
