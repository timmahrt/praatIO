(* Check/C06Check.v -- case type, correspondence and oracle for C06 (crop). *)
From PraatIO Require Export Tier.TierModel.
From PraatIO Require Import Tier.CtorProofs Tier.CropProofs.

Inductive C06case :=
| CropI (t : itier) (a b : Z) (mode : cropmode) (rebase : bool) (out : res itier)
| CropP (t : ptier) (a b : Z) (rebase : bool) (out : res ptier).

(* implementation output = model output *)
Definition C06corr (c : C06case) : bool :=
  match c with
  | CropI t a b m r out => res_eqb itier_eqb (crop_i t a b m r) out
  | CropP t a b r out => res_eqb ptier_eqb (crop_p t a b r) out
  end.

(* implementation output satisfies the specification written from the property *)
Definition C06oracle (c : C06case) : bool :=
  match c with
  | CropI t a b m r out => res_eqb itier_eqb (crop_spec t a b m r) out
  | CropP t a b r out => res_eqb ptier_eqb (crop_p_spec t a b r) out
  end.

(* the case lies inside the hypotheses of the theorems *)
Definition C06hyp (c : C06case) : bool :=
  match c with
  | CropI t _ _ _ _ _ => wf_itierb t
  | CropP t _ _ _ _ => wf_ptierb t
  end.

Theorem C06oracle_sound_i t a b m r out :
  C06oracle (CropI t a b m r out) = true <-> out = crop_spec t a b m r.
Proof. simpl. rewrite (res_eqb_eq _ itier_eqb_eq). split; congruence. Qed.

Theorem C06oracle_sound_p t a b r out :
  C06oracle (CropP t a b r out) = true <-> out = crop_p_spec t a b r.
Proof. simpl. rewrite (res_eqb_eq _ ptier_eqb_eq). split; congruence. Qed.
