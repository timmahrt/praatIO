(* Base/Prelude.v -- what every file starts from: the standard library modules in use, Python's
   exceptions and results, and the facts about lists, sorting, comparisons and rounding that belong
   to no single part of the model. *)
From Coq Require Export ZArith NArith List Bool Lia Sorting.Sorted Sorting.Permutation.
From Coq Require Export ZifyBool.
Export ListNotations.
Open Scope Z_scope.

Inductive err :=
| ArgumentError | CollisionError | TextgridStateError | OutOfBounds
| TierNameExistsError | TextgridStateAutoModified | WrongOption | ParsingError
| DuplicateTierName | SafeZipException | FindZeroCrossingError | TimelessTier
| BadKlattGridFormat | BadFormatException
| PyError.          (* any exception that is not a praatio exception *)

Definition err_eqb (a b : err) : bool :=
  match a, b with
  | ArgumentError, ArgumentError | CollisionError, CollisionError
  | TextgridStateError, TextgridStateError | OutOfBounds, OutOfBounds
  | TierNameExistsError, TierNameExistsError
  | TextgridStateAutoModified, TextgridStateAutoModified
  | WrongOption, WrongOption | ParsingError, ParsingError
  | DuplicateTierName, DuplicateTierName | SafeZipException, SafeZipException
  | FindZeroCrossingError, FindZeroCrossingError | TimelessTier, TimelessTier
  | BadKlattGridFormat, BadKlattGridFormat | BadFormatException, BadFormatException
  | PyError, PyError => true
  | _, _ => false
  end.

Lemma err_eqb_eq a b : err_eqb a b = true <-> a = b.
Proof. split; [destruct a, b; (reflexivity || discriminate)|intros <-; destruct a; reflexivity]. Qed.

Inductive res (A : Type) := Ok (a : A) | Err (e : err).
Arguments Ok {A} a.
Arguments Err {A} e.

Definition bind {A B} (r : res A) (f : A -> res B) : res B :=
  match r with Ok a => f a | Err e => Err e end.
Notation "'do' x <- r ; k" := (bind r (fun x => k))
  (at level 200, x name, r at level 100, k at level 200).

Lemma bind_ok {A B} (r : res A) (k : A -> res B) y :
  (do x <- r; k x) = Ok y -> exists x, r = Ok x /\ k x = Ok y.
Proof. destruct r as [x|]; [eauto|discriminate]. Qed.

Definition res_eqb {A} (eqb : A -> A -> bool) (r s : res A) : bool :=
  match r, s with
  | Ok a, Ok b => eqb a b
  | Err e, Err f => err_eqb e f
  | _, _ => false
  end.

Definition is_ok {A} (r : res A) : bool := match r with Ok _ => true | Err _ => false end.

Fixpoint list_eqb {A} (eqb : A -> A -> bool) (l m : list A) : bool :=
  match l, m with
  | [], [] => true
  | x :: l', y :: m' => eqb x y && list_eqb eqb l' m'
  | _, _ => false
  end.

Lemma list_eqb_eq {A} (eqb : A -> A -> bool)
      (H : forall x y, eqb x y = true <-> x = y) l m :
  list_eqb eqb l m = true <-> l = m.
Proof.
  revert m; induction l as [|x l IH]; intros [|y m]; simpl; split; intro E;
    try reflexivity; try discriminate.
  - apply andb_true_iff in E as [E1 E2]. apply H in E1. apply IH in E2. congruence.
  - inversion E; subst. apply andb_true_iff; split; [apply H|apply IH]; reflexivity.
Qed.

Definition option_eqb {A} (eqb : A -> A -> bool) (a b : option A) : bool :=
  match a, b with
  | None, None => true
  | Some x, Some y => eqb x y
  | _, _ => false
  end.

Lemma option_eqb_eq {A} (eqb : A -> A -> bool)
      (H : forall x y, eqb x y = true <-> x = y) a b :
  option_eqb eqb a b = true <-> a = b.
Proof.
  destruct a, b; simpl; split; intro E; try reflexivity; try discriminate.
  - apply H in E; congruence.
  - inversion E; subst; apply H; reflexivity.
Qed.

Lemma res_eqb_eq {A} (eqb : A -> A -> bool)
      (H : forall x y, eqb x y = true <-> x = y) r s :
  res_eqb eqb r s = true <-> r = s.
Proof.
  destruct r, s; simpl; split; intro E; try discriminate.
  - apply H in E; congruence.
  - inversion E; subst; apply H; reflexivity.
  - apply err_eqb_eq in E; congruence.
  - inversion E; subst; apply err_eqb_eq; reflexivity.
Qed.

(* positions at which f fails: the short form in which a long list of checked cases is reported *)
Fixpoint fails_from {A} (f : A -> bool) (n : nat) (l : list A) : list nat :=
  match l with
  | [] => []
  | x :: l' => if f x then fails_from f (S n) l' else n :: fails_from f (S n) l'
  end.
Definition fails {A} (f : A -> bool) (l : list A) : list nat := fails_from f 0%nat l.

Fixpoint filter_map {A B} (f : A -> option B) (l : list A) : list B :=
  match l with
  | [] => []
  | x :: l' => match f x with Some y => y :: filter_map f l' | None => filter_map f l' end
  end.

Lemma filter_map_app {A B} (f : A -> option B) l m :
  filter_map f (l ++ m) = filter_map f l ++ filter_map f m.
Proof. induction l as [|x l IH]; simpl; [reflexivity|]. destruct (f x); simpl; congruence. Qed.

Lemma filter_map_map_filter_on {A B} (P : A -> Prop) (f : A -> option B) (p : A -> bool) (g : A -> B) l :
  Forall P l -> (forall x, P x -> f x = if p x then Some (g x) else None) ->
  filter_map f l = map g (filter p l).
Proof.
  induction 1 as [|x l Hx _ IH]; intro H; simpl; [reflexivity|].
  rewrite (H x Hx), (IH H). now destruct (p x).
Qed.

Lemma filter_map_map_filter {A B} (f : A -> option B) (p : A -> bool) (g : A -> B) l :
  (forall x, f x = if p x then Some (g x) else None) ->
  filter_map f l = map g (filter p l).
Proof.
  intro H. apply (filter_map_map_filter_on (fun _ => True)); [|intros x _; apply H].
  apply Forall_forall. trivial.
Qed.

Lemma In_filter_map {A B} (f : A -> option B) l y :
  In y (filter_map f l) <-> exists x, In x l /\ f x = Some y.
Proof.
  induction l as [|x l IH]; simpl.
  - split; [tauto|intros (x & [] & _)].
  - destruct (f x) eqn:E; simpl; rewrite IH; split.
    + intros [->|(x' & Hi & Hf)]; eauto.
    + intros (x' & [->|Hi] & Hf); [left; congruence|right; eauto].
    + intros (x' & Hi & Hf); eauto.
    + intros (x' & [->|Hi] & Hf); [congruence|eauto].
Qed.

Lemma flat_map_singleton_filter {A B} (p : A -> bool) (g : A -> B) l :
  flat_map (fun x => if p x then [g x] else []) l = map g (filter p l).
Proof. induction l as [|x l IH]; simpl; [reflexivity|]. destruct (p x); simpl; congruence. Qed.

Lemma flat_map_flat_map {A B C} (f : A -> list B) (g : B -> list C) l :
  flat_map g (flat_map f l) = flat_map (fun x => flat_map g (f x)) l.
Proof. induction l as [|x l IH]; simpl; [reflexivity|]. now rewrite flat_map_app, IH. Qed.

Lemma andb3_iff (a b c : bool) (A B C : Prop) :
  (a = true <-> A) -> (b = true <-> B) -> (c = true <-> C) -> (a && b && c = true <-> A /\ B /\ C).
Proof. intros <- <- <-. rewrite !andb_true_iff. tauto. Qed.

Lemma forallb_Forall_iff {A} (p : A -> bool) (P : A -> Prop) l :
  (forall x, p x = true <-> P x) -> (forallb p l = true <-> Forall P l).
Proof.
  intro H. rewrite forallb_forall, Forall_forall. split; intros G x Hx; apply H, G, Hx.
Qed.

Lemma forallb_impl {A} (p q : A -> bool) l :
  (forall x, p x = true -> q x = true) -> forallb p l = true -> forallb q l = true.
Proof. intros I H. apply forallb_forall. intros x Hx. apply I. rewrite forallb_forall in H. now apply H. Qed.

Lemma forallb_rev {A} (f : A -> bool) l : forallb f (rev l) = forallb f l.
Proof.
  induction l as [|x l IH]; [reflexivity|]. cbn [rev forallb].
  now rewrite forallb_app, IH, andb_comm; cbn [forallb]; rewrite andb_true_r.
Qed.

Lemma Forall2_map_eq {A B C} (F : A -> B -> Prop) (f : A -> C) (g : B -> C) l l' :
  (forall a b, F a b -> g b = f a) -> Forall2 F l l' -> map g l' = map f l.
Proof. intro H. induction 1 as [|a b l l' Hab _ IH]; [reflexivity|]. cbn [map]. now rewrite (H a b Hab), IH. Qed.

Lemma Forall2_Forall_r {A B} (R : A -> B -> Prop) (P : A -> Prop) (Q : B -> Prop) l l' :
  (forall a b, P a -> R a b -> Q b) -> Forall P l -> Forall2 R l l' -> Forall Q l'.
Proof. intros H FP F. induction F; [constructor|]. inversion FP; subst. constructor; eauto. Qed.

Lemma filter_all {A} (p : A -> bool) l : (forall x, In x l -> p x = true) -> filter p l = l.
Proof.
  induction l as [|x l IH]; intro H; [reflexivity|]. cbn [filter]. rewrite (H x (or_introl eq_refl)).
  f_equal. apply IH. intros y Hy. apply H. now right.
Qed.

Lemma filter_none {A} (p : A -> bool) l : (forall x, In x l -> p x = false) -> filter p l = [].
Proof.
  induction l as [|x l IH]; intro H; [reflexivity|]. cbn [filter]. rewrite (H x (or_introl eq_refl)).
  apply IH. intros y Hy. apply H. now right.
Qed.

Lemma filter_nil_negb {A} (p : A -> bool) l : filter p l = [] -> filter (fun x => negb (p x)) l = l.
Proof.
  induction l as [|x l IH]; [reflexivity|]. cbn [filter]. destruct (p x); [discriminate|].
  intro H. cbn [negb]. now rewrite IH.
Qed.

(* a list whose p-members all come before its other members is put together again from the two filters *)
Lemma filter_split {A} (p q : A -> bool) l1 l2 :
  (forall x, In x l1 -> p x = true) -> (forall x, In x l2 -> p x = false /\ q x = true) ->
  filter p (l1 ++ l2) ++ filter (fun x => q x && negb (p x)) (l1 ++ l2) = l1 ++ l2.
Proof.
  intros H1 H2. rewrite !filter_app, (filter_all p l1 H1), (filter_none p l2), (filter_none _ l1), (filter_all _ l2).
  - now rewrite app_nil_r.
  - intros x Hx. now destruct (H2 x Hx) as [-> ->].
  - intros x Hx. rewrite (H1 x Hx). apply andb_false_r.
  - intros x Hx. apply (H2 x Hx).
Qed.

Lemma NoDup_app_intro {A} (l m : list A) :
  NoDup l -> NoDup m -> (forall x, In x l -> In x m -> False) -> NoDup (l ++ m).
Proof.
  induction l as [|a l IH]; intros Hl Hm Hd; [exact Hm|]. cbn [app]. inversion Hl as [|? ? Na Hl']; subst.
  constructor.
  - intro Hin. apply in_app_or in Hin as [Hin|Hin]; [contradiction|]. apply (Hd a); [now left|exact Hin].
  - apply IH; [exact Hl'|exact Hm|]. intros x Hx Hy. apply (Hd x); [now right|exact Hy].
Qed.

Lemma nth_skipn_add {A} (l : list A) n i d : nth i (skipn n l) d = nth (n + i) l d.
Proof.
  revert l; induction n as [|n IH]; intro l; [reflexivity|].
  destruct l as [|x l]; [now destruct i|]. apply IH.
Qed.

Lemma nth_firstn_lt {A} (l : list A) n i d : (i < n)%nat -> nth i (firstn n l) d = nth i l d.
Proof.
  revert l i; induction n as [|n IH]; intros l i H; [inversion H|].
  destruct l as [|x l]; [now destruct i|]. destruct i as [|i]; [reflexivity|]. apply (IH l i), le_S_n, H.
Qed.

Lemma nth_firstn_skipn {A} (l : list A) a n j d :
  (j < n)%nat -> nth j (firstn n (skipn a l)) d = nth (a + j) l d.
Proof. intro H. rewrite nth_firstn_lt by exact H. apply nth_skipn_add. Qed.

Lemma firstn_skipn_length {A} (l : list A) a n :
  (a + n <= length l)%nat -> length (firstn n (skipn a l)) = n.
Proof. intro H. rewrite firstn_length, skipn_length. lia. Qed.

Lemma Forall_firstn {A} (P : A -> Prop) n l : Forall P l -> Forall P (firstn n l).
Proof. intro H. rewrite <- (firstn_skipn n l) in H. apply Forall_app in H. apply H. Qed.

Lemma Forall_skipn {A} (P : A -> Prop) n l : Forall P l -> Forall P (skipn n l).
Proof. intro H. rewrite <- (firstn_skipn n l) in H. apply Forall_app in H. apply H. Qed.

Lemma firstn_app_exact {A} (a b : list A) : firstn (length a) (a ++ b) = a.
Proof. induction a as [|x a IH]; [apply firstn_O|]. cbn [length app firstn]. now rewrite IH. Qed.

Lemma skipn_app_exact {A} (a b : list A) : skipn (length a) (a ++ b) = b.
Proof. induction a as [|x a IH]; [reflexivity|exact IH]. Qed.

Lemma firstn_add {A} n k : forall l : list A, firstn (n + k) l = firstn n l ++ firstn k (skipn n l).
Proof.
  induction n as [|n IH]; intro l; [reflexivity|].
  destruct l as [|x l]; [simpl; now rewrite firstn_nil|]. simpl. now rewrite IH.
Qed.

Lemma skipn_skipn {A} x : forall y (l : list A), skipn x (skipn y l) = skipn (x + y) l.
Proof.
  intros y. induction y as [|y IH]; intro l; [now rewrite Nat.add_0_r|].
  destruct l as [|a l]; [now rewrite !skipn_nil|]. replace (x + S y)%nat with (S (x + y)) by lia. simpl. apply IH.
Qed.

Lemma delete_insert_id {A} (s f : list A) i : (i <= length s)%nat ->
  firstn i (firstn i s ++ f ++ skipn i s) ++ skipn (i + length f) (firstn i s ++ f ++ skipn i s) = s.
Proof.
  intro H. rewrite <- (firstn_skipn i s) at 5. apply firstn_length_le in H.
  generalize dependent (firstn i s). intros a <-. generalize (skipn (length a) s). intro b.
  now rewrite firstn_app_exact, app_assoc, <- app_length, skipn_app_exact.
Qed.

Lemma seq_plus a : forall n b, seq (a + b) n = map (Nat.add a) (seq b n).
Proof.
  induction n as [|n IH]; intro b; [reflexivity|].
  cbn [seq map]. f_equal. rewrite <- IH. f_equal. lia.
Qed.

Lemma rev_map_seq {A} (g : nat -> A) o : rev (map g (seq 1 o)) = map (fun k => g (o - k)%nat) (seq 0 o).
Proof.
  induction o as [|o IH]; [reflexivity|].
  rewrite seq_S, map_app, rev_app_distr. cbn [map rev app]. rewrite IH.
  change (seq 0 (S o)) with (0%nat :: seq 1 o). cbn [map]. f_equal.
  rewrite <- seq_shift, map_map. apply map_ext. intro k. reflexivity.
Qed.

Lemma nth_map_seq {A} (g : nat -> A) n x d : (x < n)%nat -> nth x (map g (seq 0 n)) d = g x.
Proof.
  intro H. rewrite (nth_indep _ d (g 0%nat)) by (rewrite map_length, seq_length; exact H).
  rewrite (map_nth g (seq 0 n) 0%nat x). rewrite seq_nth by exact H. reflexivity.
Qed.

Lemma nth_error_combine {A B} (a : list A) : forall (b : list B) k x y,
  nth_error a k = Some x -> nth_error b k = Some y -> nth_error (combine a b) k = Some (x, y).
Proof.
  induction a as [|a0 a IH]; intros b k x y Ha Hb; [destruct k; discriminate|].
  destruct b as [|b0 b]; [destruct k; discriminate|].
  destruct k as [|k]; simpl in *; [congruence|]. apply IH; assumption.
Qed.

Lemma last_cons {A} (b : A) idxs d : last (b :: idxs) d = last idxs b.
Proof.
  revert b d; induction idxs as [|c idxs IH]; intros b d; [reflexivity|].
  change (last (b :: c :: idxs) d) with (last (c :: idxs) d). now rewrite (IH c d), (IH c b).
Qed.

Fixpoint last_opt {A} (l : list A) : option A :=
  match l with
  | [] => None
  | [x] => Some x
  | _ :: l' => last_opt l'
  end.

Lemma last_opt_snoc {A} (l : list A) x : last_opt (l ++ [x]) = Some x.
Proof.
  induction l as [|y l IH]; [reflexivity|]. cbn [app last_opt].
  destruct (l ++ [x]) eqn:E; [destruct l; discriminate|exact IH].
Qed.

Lemma last_opt_spec {A} (l : list A) :
  match last_opt l with Some b => exists l0, l = l0 ++ [b] | None => l = [] end.
Proof.
  induction l as [|a l IH]; [reflexivity|]. destruct l as [|a' l]; [exists []; reflexivity|].
  change (last_opt (a :: a' :: l)) with (last_opt (a' :: l)).
  destruct (last_opt (a' :: l)) as [b|]; [|discriminate]. destruct IH as (l0 & ->). now exists (a :: l0).
Qed.

Lemma last_opt_None {A} (l : list A) : last_opt l = None -> l = [].
Proof. intro H. pose proof (last_opt_spec l) as S. now rewrite H in S. Qed.

Lemma last_opt_cons {A} (c : A) l : last_opt (c :: l) <> None.
Proof. intro H. apply last_opt_None in H. discriminate. Qed.

Lemma last_opt_In {A} (l : list A) x : last_opt l = Some x -> In x l.
Proof.
  intro H. pose proof (last_opt_spec l) as S. rewrite H in S. destruct S as (l0 & ->).
  apply in_or_app. right. now left.
Qed.

(* Insertion sort over a boolean order: Python's sorted() for a total order whose ties are only
   between identical elements *)
Section Sort.
  Context {A : Type} (leb : A -> A -> bool).

  Fixpoint insert (x : A) (l : list A) : list A :=
    match l with
    | [] => [x]
    | y :: l' => if leb x y then x :: y :: l' else y :: insert x l'
    end.

  Fixpoint isort (l : list A) : list A :=
    match l with
    | [] => []
    | x :: l' => insert x (isort l')
    end.

  Definition lebP (x y : A) : Prop := leb x y = true.

  Lemma insert_perm x l : Permutation (x :: l) (insert x l).
  Proof.
    induction l as [|y l IH]; simpl; [reflexivity|].
    destruct (leb x y); [reflexivity|].
    rewrite perm_swap. apply perm_skip, IH.
  Qed.

  Lemma isort_perm l : Permutation l (isort l).
  Proof.
    induction l as [|x l IH]; simpl; [reflexivity|].
    rewrite <- insert_perm. apply perm_skip, IH.
  Qed.

  Lemma In_insert x l y : In y (insert x l) <-> y = x \/ In y l.
  Proof.
    split; intro H.
    - apply (Permutation_in y (Permutation_sym (insert_perm x l))) in H. destruct H; auto.
    - apply (Permutation_in y (insert_perm x l)). destruct H; [left|right]; auto.
  Qed.

  Lemma Forall_insert (P : A -> Prop) x l : Forall P (insert x l) <-> P x /\ Forall P l.
  Proof. rewrite <- Forall_cons_iff. split; apply Permutation_Forall; [symmetry|]; apply insert_perm. Qed.

  Lemma isort_In x l : In x (isort l) <-> In x l.
  Proof.
    split; intro H.
    - eapply Permutation_in; [symmetry; apply isort_perm|exact H].
    - eapply Permutation_in; [apply isort_perm|exact H].
  Qed.

  Lemma isort_length l : length (isort l) = length l.
  Proof. symmetry; apply Permutation_length, isort_perm. Qed.

  Lemma isort_snoc_perm l x : Permutation (isort (l ++ [x])) (x :: l).
  Proof. rewrite <- isort_perm. symmetry. apply Permutation_cons_append. Qed.

  (* inserting keeps a list sorted for any relation R that agrees with the comparison on x *)
  Lemma insert_sorted_for (R : A -> A -> Prop) x l :
    (forall y, In y l -> if leb x y then R x y else R y x) ->
    (forall y z, In y l -> In z l -> R x y -> R y z -> R x z) ->
    StronglySorted R l -> StronglySorted R (insert x l).
  Proof.
    induction l as [|y l IH]; intros Hx Ht Hs; cbn [insert]; [repeat constructor|].
    apply StronglySorted_inv in Hs as [Hs Hy]. pose proof (Hx y (or_introl eq_refl)) as Hxy.
    destruct (leb x y).
    - constructor; [constructor; assumption|]. constructor; [exact Hxy|].
      rewrite Forall_forall in *. intros z Hz. apply (Ht y z); simpl; auto.
    - constructor; [apply IH; [intros; apply Hx; now right|intros y0 z ? ?; apply Ht; now right|exact Hs]|].
      apply Forall_insert. split; assumption.
  Qed.

  Lemma insert_sorted_id x l :
    StronglySorted lebP (x :: l) -> insert x l = x :: l.
  Proof.
    intros H. destruct l as [|y l]; simpl; [reflexivity|].
    inversion H as [|? ? _ Hall]; subst. inversion Hall as [|? ? Hxy _]; subst.
    unfold lebP in Hxy. now rewrite Hxy.
  Qed.

  Lemma isort_sorted_id l : StronglySorted lebP l -> isort l = l.
  Proof.
    induction l as [|x l IH]; intro H; simpl; [reflexivity|].
    inversion H as [|? ? Hl _]; subst.
    rewrite (IH Hl). apply insert_sorted_id, H.
  Qed.

  Hypothesis leb_total : forall x y, leb x y = true \/ leb y x = true.
  Hypothesis leb_trans : forall x y z, leb x y = true -> leb y z = true -> leb x z = true.

  Lemma insert_sorted x l :
    StronglySorted lebP l -> StronglySorted lebP (insert x l).
  Proof.
    intro H. apply insert_sorted_for; [|intros y z _ _; apply leb_trans|exact H].
    intros y _. unfold lebP. destruct (leb x y) eqn:E; [reflexivity|].
    destruct (leb_total x y) as [C|C]; [congruence|exact C].
  Qed.

  Lemma isort_sorted l : StronglySorted lebP (isort l).
  Proof. induction l as [|x l IH]; simpl; [constructor|apply insert_sorted, IH]. Qed.

  Hypothesis leb_antisym : forall x y, leb x y = true -> leb y x = true -> x = y.

  Lemma sorted_perm_eq l m :
    StronglySorted lebP l -> StronglySorted lebP m -> Permutation l m -> l = m.
  Proof.
    revert m; induction l as [|x l IH]; intros m Hl Hm P.
    - apply Permutation_nil in P; congruence.
    - destruct m as [|y m]; [apply Permutation_sym, Permutation_nil in P; discriminate|].
      inversion Hl as [|? ? Hl' Hxl]; subst. inversion Hm as [|? ? Hm' Hym]; subst.
      assert (x = y) as ->.
      { assert (In x (y :: m)) as [->|Hx] by (eapply Permutation_in; [exact P|left; reflexivity]);
          [reflexivity|].
        assert (In y (x :: l)) as [->|Hy]
            by (eapply Permutation_in; [symmetry; exact P|left; reflexivity]); [reflexivity|].
        rewrite Forall_forall in Hxl, Hym. apply leb_antisym; [apply Hxl, Hy|apply Hym, Hx]. }
      f_equal. apply IH; auto. eapply Permutation_cons_inv, P.
  Qed.

  Lemma isort_unique l m :
    Permutation l m -> StronglySorted lebP m -> isort l = m.
  Proof.
    intros P Hm. apply sorted_perm_eq; [apply isort_sorted|exact Hm|].
    rewrite <- P. symmetry. apply isort_perm.
  Qed.

  Lemma isort_idem l : isort (isort l) = isort l.
  Proof. apply isort_sorted_id, isort_sorted. Qed.

  Lemma isort_perm_eq l m : Permutation l m -> isort l = isort m.
  Proof.
    intro P. apply isort_unique; [|apply isort_sorted].
    rewrite P. apply isort_perm.
  Qed.

  (* list.append then list.sort on a sorted list is a sorted insertion *)
  Lemma isort_snoc l x : StronglySorted lebP l -> isort (l ++ [x]) = insert x l.
  Proof.
    intro Hs. apply isort_unique; [|apply insert_sorted, Hs].
    rewrite <- insert_perm. apply Permutation_sym, Permutation_cons_append.
  Qed.
End Sort.

Lemma StronglySorted_app_inv {A} (R : A -> A -> Prop) a b :
  StronglySorted R (a ++ b) ->
  StronglySorted R a /\ StronglySorted R b /\ forall x y, In x a -> In y b -> R x y.
Proof.
  induction a as [|h a IH]; cbn [app]; intro H.
  - split; [constructor|]. split; [exact H|intros x y []].
  - apply StronglySorted_inv in H as [H Hall]. destruct (IH H) as (Sa & Sb & Hab).
    apply Forall_app in Hall as [Ha Hb]. split; [constructor; assumption|]. split; [exact Sb|].
    intros x y [<-|Hx] Hy; [|auto]. rewrite Forall_forall in Hb. auto.
Qed.

Lemma StronglySorted_filter {A} (R : A -> A -> Prop) (p : A -> bool) l :
  StronglySorted R l -> StronglySorted R (filter p l).
Proof.
  induction 1 as [|x l _ IH Hx]; cbn [filter]; [constructor|]. destruct (p x); [|exact IH].
  constructor; [exact IH|]. eapply incl_Forall; [apply incl_filter|exact Hx].
Qed.

Lemma StronglySorted_map {A B} (R : A -> A -> Prop) (S : B -> B -> Prop) (g : A -> B) l :
  (forall x y, R x y -> S (g x) (g y)) -> StronglySorted R l -> StronglySorted S (map g l).
Proof.
  intro H. induction 1 as [|x l _ IH Hx]; simpl; constructor; [exact IH|].
  apply Forall_map. eapply Forall_impl; [|exact Hx]. apply H.
Qed.

Lemma Forall2_sorted_mono {A B} (R : A -> A -> Prop) (S : B -> B -> Prop) (F : A -> B -> Prop) l l' :
  (forall a b a' b', F a a' -> F b b' -> R a b -> S a' b') ->
  Forall2 F l l' -> StronglySorted R l -> StronglySorted S l'.
Proof.
  intros H F2. induction F2 as [|a a' l l' Fa F2 IH]; intro Hs; [constructor|].
  apply StronglySorted_inv in Hs as [Hs Ha]. constructor; [apply IH, Hs|].
  clear IH Hs. induction F2 as [|b b' l l' Fb _ IH]; [constructor|].
  inversion Ha; subst. constructor; [eapply H; eassumption|apply IH; assumption].
Qed.

(* entries laid end to end from lo on (C lo l), each after the last one's end, are in the order of any leb that
   the start times decide *)
Lemma chain_sorted {A} (st en : A -> Z) (P : A -> Prop) (leb : A -> A -> bool) (C : Z -> list A -> Prop) :
  (forall a b, P b -> st a < st b -> leb a b = true) ->
  (forall lo x l, C lo (x :: l) -> P x /\ lo <= st x /\ st x < en x /\ C (en x) l) ->
  forall l lo, C lo l -> Forall (fun x => P x /\ lo <= st x) l /\ StronglySorted (lebP leb) l.
Proof.
  intros Hleb Hc. induction l as [|x l IH]; intros lo H; [split; constructor|].
  destruct (Hc _ _ _ H) as (Px & A' & B & C'). destruct (IH _ C') as [F S]. split.
  - constructor; [auto|]. eapply Forall_impl; [|exact F]. cbv beta. intros y [? ?]. split; [assumption|lia].
  - constructor; [exact S|]. eapply Forall_impl; [|exact F]. cbv beta. intros y [Py ?]. apply Hleb; [exact Py|lia].
Qed.

(* l.remove(x) / l.pop(l.index(x)) : remove the first element equal to x;
   None when absent (Python raises ValueError) *)
Fixpoint remove_first {A} (eqb : A -> A -> bool) (x : A) (l : list A) : option (list A) :=
  match l with
  | [] => None
  | y :: l' => if eqb y x then Some l'
               else match remove_first eqb x l' with
                    | Some r => Some (y :: r) | None => None end
  end.

Lemma remove_first_split {A} (eqb : A -> A -> bool) x l l' :
  remove_first eqb x l = Some l' -> exists l1 y l2, l = l1 ++ y :: l2 /\ l' = l1 ++ l2 /\ eqb y x = true.
Proof.
  revert l'. induction l as [|z l IH]; intros l' E; [discriminate|]. cbn [remove_first] in E.
  destruct (eqb z x) eqn:Ez.
  - injection E as <-. now exists [], z, l.
  - destruct (remove_first eqb x l) as [r|]; [|discriminate]. injection E as <-.
    destruct (IH r eq_refl) as (l1 & y & l2 & -> & -> & Ey). now exists (z :: l1), y, l2.
Qed.

Lemma remove_first_incl {A} (eqb : A -> A -> bool) x l l' :
  remove_first eqb x l = Some l' -> forall y, In y l' -> In y l.
Proof.
  intros E y Hy. destruct (remove_first_split _ _ _ _ E) as (l1 & z & l2 & -> & -> & _).
  apply in_app_or in Hy as [Hy|Hy]; apply in_or_app; [left|right; right]; exact Hy.
Qed.

Lemma remove_first_perm {A} (eqb : A -> A -> bool) x l l' :
  (forall y, eqb y x = true -> y = x) ->
  remove_first eqb x l = Some l' -> Permutation l (x :: l').
Proof.
  intros Heq E. destruct (remove_first_split _ _ _ _ E) as (l1 & z & l2 & -> & -> & Ez).
  apply Heq in Ez as ->. symmetry. apply Permutation_middle.
Qed.

Lemma remove_first_sorted {A} (eqb : A -> A -> bool) (R : A -> A -> Prop) x l l' :
  remove_first eqb x l = Some l' -> StronglySorted R l -> StronglySorted R l'.
Proof.
  revert l'. induction l as [|z l IH]; intros l' E Hs; [discriminate|]. cbn [remove_first] in E.
  apply StronglySorted_inv in Hs as [Hs Hz]. destruct (eqb z x); [injection E as <-; exact Hs|].
  destruct (remove_first eqb x l) as [r|] eqn:Er; [|discriminate]. injection E as <-.
  constructor; [apply IH; auto|]. rewrite Forall_forall in *. intros y Hy. eapply Hz, remove_first_incl; eauto.
Qed.

(* normalised Python index for list.insert: negative counts from the end,
   both directions clamp *)
Definition py_insert_pos (len : nat) (i : Z) : nat :=
  let n := Z.of_nat len in
  let j := if i <? 0 then Z.max 0 (n + i) else Z.min n i in
  Z.to_nat j.

Definition py_insert {A} (l : list A) (i : Z) (x : A) : list A :=
  let k := py_insert_pos (length l) i in
  firstn k l ++ x :: skipn k l.

Lemma py_insert_pos_nat len k : (k <= len)%nat -> py_insert_pos len (Z.of_nat k) = k.
Proof. intro H. unfold py_insert_pos. destruct (Z.ltb_spec (Z.of_nat k) 0); lia. Qed.

Lemma py_insert_perm {A} (l : list A) i x : Permutation (x :: l) (py_insert l i x).
Proof.
  unfold py_insert. eapply Permutation_trans; [|apply Permutation_middle]. now rewrite firstn_skipn.
Qed.

Lemma py_insert_app_length {A} (l1 l2 : list A) x :
  py_insert (l1 ++ l2) (Z.of_nat (length l1)) x = l1 ++ x :: l2.
Proof.
  unfold py_insert. rewrite py_insert_pos_nat by (rewrite app_length; lia).
  rewrite firstn_app, firstn_all, Nat.sub_diag, skipn_app, skipn_all, Nat.sub_diag. cbn. now rewrite app_nil_r.
Qed.

(* slice l[i:j] for non-negative i j (already normalised) *)
Definition slice {A} (l : list A) (i j : nat) : list A := firstn (j - i) (skipn i l).

Definition zmin_list (l : list Z) : option Z :=
  match l with [] => None | x :: l' => Some (fold_left Z.min l' x) end.
Definition zmax_list (l : list Z) : option Z :=
  match l with [] => None | x :: l' => Some (fold_left Z.max l' x) end.

Lemma fold_min_le l : forall x, fold_left Z.min l x <= x /\ Forall (fun y => fold_left Z.min l x <= y) l.
Proof.
  induction l as [|y l IH]; intro x; simpl; [split; [lia|constructor]|].
  destruct (IH (Z.min x y)) as [H1 H2]. split; [lia|]. constructor; [lia|exact H2].
Qed.

Lemma fold_max_ge l : forall x, x <= fold_left Z.max l x /\ Forall (fun y => y <= fold_left Z.max l x) l.
Proof.
  induction l as [|y l IH]; intro x; simpl; [split; [lia|constructor]|].
  destruct (IH (Z.max x y)) as [H1 H2]. split; [lia|]. constructor; [lia|exact H2].
Qed.

Lemma fold_min_In l : forall x, fold_left Z.min l x = x \/ In (fold_left Z.min l x) l.
Proof.
  induction l as [|y l IH]; intro x; simpl; [left; reflexivity|].
  destruct (IH (Z.min x y)) as [H|H]; [|right; right; exact H].
  rewrite H. destruct (Z.min_spec x y) as [[_ ->]|[_ ->]]; [left|right; left]; reflexivity.
Qed.

Lemma fold_max_In l : forall x, fold_left Z.max l x = x \/ In (fold_left Z.max l x) l.
Proof.
  induction l as [|y l IH]; intro x; simpl; [left; reflexivity|].
  destruct (IH (Z.max x y)) as [H|H]; [|right; right; exact H].
  rewrite H. destruct (Z.max_spec x y) as [[_ ->]|[_ ->]]; [right; left|left]; reflexivity.
Qed.

Lemma zmin_list_spec l m : zmin_list l = Some m -> In m l /\ Forall (fun y => m <= y) l.
Proof.
  destruct l as [|x l]; simpl; [discriminate|]. intros [= <-].
  destruct (fold_min_le l x) as [H1 H2]. split.
  - destruct (fold_min_In l x) as [->|H]; [left; reflexivity|right; exact H].
  - constructor; assumption.
Qed.

Lemma zmax_list_spec l m : zmax_list l = Some m -> In m l /\ Forall (fun y => y <= m) l.
Proof.
  destruct l as [|x l]; simpl; [discriminate|]. intros [= <-].
  destruct (fold_max_ge l x) as [H1 H2]. split.
  - destruct (fold_max_In l x) as [->|H]; [left; reflexivity|right; exact H].
  - constructor; assumption.
Qed.

Lemma zmin_list_eq l m : In m l -> Forall (fun y => m <= y) l -> zmin_list l = Some m.
Proof.
  intros Hin Hall. destruct (zmin_list l) as [m'|] eqn:E; [|destruct l; [destruct Hin|discriminate]].
  apply zmin_list_spec in E as [Hin' Hall']. rewrite Forall_forall in Hall, Hall'.
  f_equal. apply Z.le_antisymm; auto.
Qed.

Lemma zmax_list_eq l m : In m l -> Forall (fun y => y <= m) l -> zmax_list l = Some m.
Proof.
  intros Hin Hall. destruct (zmax_list l) as [m'|] eqn:E; [|destruct l; [destruct Hin|discriminate]].
  apply zmax_list_spec in E as [Hin' Hall']. rewrite Forall_forall in Hall, Hall'.
  f_equal. apply Z.le_antisymm; auto.
Qed.

Lemma zmin_list_perm l m : Permutation l m -> zmin_list l = zmin_list m.
Proof.
  intro P. destruct (zmin_list l) as [a|] eqn:E; [|destruct l; [now rewrite (Permutation_nil P)|discriminate]].
  apply zmin_list_spec in E as [Hi Ha]. symmetry.
  apply zmin_list_eq; [exact (Permutation_in _ P Hi)|exact (Permutation_Forall P Ha)].
Qed.
Lemma zmax_list_perm l m : Permutation l m -> zmax_list l = zmax_list m.
Proof.
  intro P. destruct (zmax_list l) as [a|] eqn:E; [|destruct l; [now rewrite (Permutation_nil P)|discriminate]].
  apply zmax_list_spec in E as [Hi Ha]. symmetry.
  apply zmax_list_eq; [exact (Permutation_in _ P Hi)|exact (Permutation_Forall P Ha)].
Qed.

Lemma zmin_list_snoc l x :
  zmin_list (l ++ [x]) = Some (match zmin_list l with Some a => Z.min a x | None => x end).
Proof. destruct l; simpl; [reflexivity|]. now rewrite fold_left_app. Qed.

Lemma zmax_list_snoc l x :
  zmax_list (l ++ [x]) = Some (match zmax_list l with Some a => Z.max a x | None => x end).
Proof. destruct l; simpl; [reflexivity|]. now rewrite fold_left_app. Qed.

Lemma ltb_min a b : (if a <? b then a else b) = Z.min a b.
Proof. destruct (Z.ltb_spec a b); lia. Qed.

Lemma ltb_max a b : (if a <? b then b else a) = Z.max a b.
Proof. destruct (Z.ltb_spec a b); lia. Qed.

Lemma ltb_mul_r a b c : 0 < c -> (a * c <? b * c) = (a <? b).
Proof. intro H. unfold Z.ltb. now rewrite <- Zmult_compare_compat_r by lia. Qed.

(* The span update of insertEntry: s is the sorted list after x joined the entries l, all of which lie
   within [mn, mx]; its head has the least lower bound and its last element the greatest upper bound, so
   comparing just these two with the old span grows it to hold x and no further. *)
Lemma span_grow {A} (lo hi : A -> Z) (s l : list A) (x : A) mn mx :
  (forall y, In y s <-> y = x \/ In y l) ->
  (forall a r, s = a :: r -> forall y, In y s -> lo a <= lo y) ->
  (forall b, last_opt s = Some b -> forall y, In y s -> hi y <= hi b) ->
  (forall y, In y l -> mn <= lo y /\ hi y <= mx) ->
  match s with a :: _ => if lo a <? mn then lo a else mn | [] => mn end = Z.min mn (lo x) /\
  match last_opt s with Some b => if mx <? hi b then hi b else mx | None => mx end = Z.max mx (hi x).
Proof.
  intros Hin Hhd Hla Hl. assert (In x s) as Hx by (apply Hin; now left). split.
  - destruct s as [|a r]; [destruct Hx|]. rewrite ltb_min. pose proof (Hhd a r eq_refl x Hx).
    destruct (proj1 (Hin a) (or_introl eq_refl)) as [->|Ha]; [lia|]. destruct (Hl a Ha). lia.
  - pose proof (last_opt_spec s) as S. destruct (last_opt s) as [b|]; [|subst s; destruct Hx].
    destruct S as (l0 & E). rewrite ltb_max. pose proof (Hla b eq_refl x Hx).
    assert (In b s) as Hb by (rewrite E; apply in_or_app; right; now left).
    destruct (proj1 (Hin b) Hb) as [->|Hb']; [lia|]. destruct (Hl b Hb'). lia.
Qed.

(* along an increasing sequence the distance to a target t falls, then rises *)
Lemma abs_past_min t a b c : a < b < c -> Z.abs (a - t) <= Z.abs (b - t) -> Z.abs (b - t) < Z.abs (c - t).
Proof. lia. Qed.

Lemma abs_nearer_later a b t t2 :
  a <= b -> Z.abs (b - t) <= Z.abs (a - t) -> t <= t2 -> Z.abs (b - t2) <= Z.abs (a - t2).
Proof. lia. Qed.

(* orders given by a three-way comparison, and their lexicographic product *)
Definition cmp_ok {A} (cmp : A -> A -> comparison) : Prop :=
  (forall x y, cmp y x = CompOpp (cmp x y)) /\
  (forall x y, cmp x y = Eq <-> x = y) /\
  (forall x y z, cmp x y = Lt -> cmp y z = Lt -> cmp x z = Lt).

Definition leb_of {A} (cmp : A -> A -> comparison) (x y : A) : bool :=
  match cmp x y with Gt => false | _ => true end.

Lemma leb_of_total {A} (cmp : A -> A -> comparison) x y :
  cmp_ok cmp -> leb_of cmp x y = true \/ leb_of cmp y x = true.
Proof. intros (S & _). unfold leb_of. rewrite (S x y). destruct (cmp x y); simpl; auto. Qed.

Lemma leb_of_antisym {A} (cmp : A -> A -> comparison) x y :
  cmp_ok cmp -> leb_of cmp x y = true -> leb_of cmp y x = true -> x = y.
Proof.
  intros (S & E & _). unfold leb_of. rewrite (S x y). destruct (cmp x y) eqn:C; simpl; try discriminate.
  intros _ _. apply E, C.
Qed.

Lemma leb_of_trans {A} (cmp : A -> A -> comparison) x y z :
  cmp_ok cmp -> leb_of cmp x y = true -> leb_of cmp y z = true -> leb_of cmp x z = true.
Proof.
  intros (_ & E & T). unfold leb_of.
  destruct (cmp x y) eqn:C1; try discriminate; destruct (cmp y z) eqn:C2; try discriminate; intros _ _.
  - apply E in C1, C2. subst. now rewrite (proj2 (E z z) eq_refl).
  - apply E in C1. subst. now rewrite C2.
  - apply E in C2. subst. now rewrite C1.
  - now rewrite (T _ _ _ C1 C2).
Qed.

Lemma lex_ok {A B} (c1 : A -> A -> comparison) (c2 : B -> B -> comparison) :
  cmp_ok c1 -> cmp_ok c2 ->
  cmp_ok (fun p q => match c1 (fst p) (fst q) with Eq => c2 (snd p) (snd q) | c => c end).
Proof.
  intros (S1 & E1 & T1) (S2 & E2 & T2). split; [|split].
  - intros [a b] [a' b']. simpl. rewrite (S1 a a'), (S2 b b'). destruct (c1 a a'), (c2 b b'); reflexivity.
  - intros [a b] [a' b']. simpl. split.
    + destruct (c1 a a') eqn:C; try discriminate. intro D. apply E1 in C. apply E2 in D. congruence.
    + intros [= -> ->]. rewrite (proj2 (E1 a' a') eq_refl). now apply E2.
  - intros [a b] [a' b'] [a'' b'']. simpl.
    destruct (c1 a a') eqn:C1; try discriminate; destruct (c1 a' a'') eqn:C2; try discriminate.
    + apply E1 in C1, C2. subst. rewrite (proj2 (E1 a'' a'') eq_refl). apply T2.
    + apply E1 in C1. subst. now rewrite C2.
    + apply E1 in C2. subst. now rewrite C1.
    + now rewrite (T1 _ _ _ C1 C2).
Qed.

Lemma cmp_ok_on {A B} (f : A -> B) (cmp : B -> B -> comparison) :
  (forall x y, f x = f y -> x = y) -> cmp_ok cmp -> cmp_ok (fun x y => cmp (f x) (f y)).
Proof.
  intros I (S & E & T). split; [|split]; [auto| |eauto].
  intros x y. rewrite E. split; [apply I|congruence].
Qed.

Lemma Z_compare_ok : cmp_ok Z.compare.
Proof.
  split; [apply Z.compare_antisym|]. split; [apply Z.compare_eq_iff|].
  intros x y z. rewrite !Z.compare_lt_iff. lia.
Qed.

(* round half to even of the rational n/d, d > 0  (Python round()) *)
Definition round_half_even (n d : Z) : Z :=
  let q := n / d in
  let r := n mod d in
  if 2 * r <? d then q
  else if d <? 2 * r then q + 1
  else if Z.even q then q else q + 1.

Lemma rhe_bounds n d : n / d <= round_half_even n d <= n / d + 1.
Proof.
  unfold round_half_even. generalize (n / d) (n mod d). intros q r.
  destruct (2 * r <? d); [lia|]. destruct (d <? 2 * r); [lia|]. destruct (Z.even q); lia.
Qed.

Lemma rhe_nonneg n d : 0 < d -> 0 <= n -> 0 <= round_half_even n d.
Proof. intros Hd Hn. eapply Z.le_trans; [apply (Z.div_pos n d Hn Hd)|apply rhe_bounds]. Qed.

Lemma rhe_exact K i : 0 < K -> round_half_even (i * K) K = i.
Proof.
  intro H. unfold round_half_even. rewrite Z.div_mul, Z.mod_mul by lia.
  assert (2 * 0 <? K = true) as -> by lia. reflexivity.
Qed.
