(* Base/PyText.v -- text as a list of Unicode code points, with the Python str operations the praatIO
   code uses, and pieces of text in which a searched word cannot start (nostart, nocc), the notion under
   the keyword chunking and keyword searches of the TextGrid readers. *)
From PraatIO Require Export Base.Prelude.

Definition text := list N.

Definition text_eqb (a b : text) : bool := list_eqb N.eqb a b.

Lemma text_eqb_eq a b : text_eqb a b = true <-> a = b.
Proof. apply list_eqb_eq. intros; apply N.eqb_eq. Qed.

Lemma text_eqb_refl a : text_eqb a a = true.
Proof. apply text_eqb_eq; reflexivity. Qed.

Lemma text_eqb_neq a b : text_eqb a b = false <-> a <> b.
Proof. now rewrite <- not_true_iff_false, text_eqb_eq. Qed.

(* Python str comparison: lexicographic by code point, a proper prefix is smaller *)
Fixpoint text_cmp (a b : text) : comparison :=
  match a, b with
  | [], [] => Eq
  | [], _ :: _ => Lt
  | _ :: _, [] => Gt
  | x :: a', y :: b' =>
      match N.compare x y with
      | Eq => text_cmp a' b'
      | c => c
      end
  end.

Lemma text_cmp_eq a b : text_cmp a b = Eq <-> a = b.
Proof.
  revert b; induction a as [|x a IH]; intros [|y b]; simpl; split; intro H;
    try reflexivity; try discriminate.
  - destruct (N.compare x y) eqn:E; try discriminate.
    apply N.compare_eq in E. apply IH in H. congruence.
  - inversion H; subst. rewrite N.compare_refl. apply IH; reflexivity.
Qed.

Lemma text_cmp_antisym a b : text_cmp b a = CompOpp (text_cmp a b).
Proof.
  revert b; induction a as [|x a IH]; intros [|y b]; simpl; try reflexivity.
  rewrite (N.compare_antisym x y). destruct (N.compare x y); simpl; auto.
Qed.

Lemma text_cmp_trans_lt a b c : text_cmp a b = Lt -> text_cmp b c = Lt -> text_cmp a c = Lt.
Proof.
  revert b c; induction a as [|x a IH]; intros [|y b] [|z c]; simpl; intros H1 H2;
    try reflexivity; try discriminate.
  destruct (N.compare x y) eqn:E1; try discriminate;
    destruct (N.compare y z) eqn:E2; try discriminate.
  - apply N.compare_eq in E1, E2. subst. rewrite N.compare_refl. eapply IH; eauto.
  - apply N.compare_eq in E1. subst. now rewrite E2.
  - apply N.compare_eq in E2. subst. now rewrite E1.
  - rewrite N.compare_lt_iff in E1, E2. assert (x < z)%N as H by lia.
    apply N.compare_lt_iff in H. now rewrite H.
Qed.

Lemma text_cmp_ok : cmp_ok text_cmp.
Proof. split; [apply text_cmp_antisym|]. split; [apply text_cmp_eq|apply text_cmp_trans_lt]. Qed.

(* str.isspace(), which equals the regex class \s for str patterns:
   29 code points *)
Definition isspace (c : N) : bool :=
  ((9 <=? c) && (c <=? 13) || (28 <=? c) && (c <=? 32)
   || (c =? 133) || (c =? 160) || (c =? 5760)
   || (8192 <=? c) && (c <=? 8202)
   || (c =? 8232) || (c =? 8233) || (c =? 8239) || (c =? 8287) || (c =? 12288))%N.

Fixpoint lstrip (t : text) : text :=
  match t with
  | c :: t' => if isspace c then lstrip t' else t
  | [] => []
  end.

Definition rstrip (t : text) : text := rev (lstrip (rev t)).

Definition strip (t : text) : text := rstrip (lstrip t).

Definition stripped (t : text) : Prop := strip t = t.

Definition strippedb (t : text) : bool := text_eqb (strip t) t.

Lemma strippedb_spec t : strippedb t = true <-> stripped t.
Proof. apply text_eqb_eq. Qed.

Definition head_ok (t : text) : Prop := match t with c :: _ => isspace c = false | [] => True end.

Lemma lstrip_idem t : lstrip (lstrip t) = lstrip t.
Proof.
  induction t as [|c t IH]; cbn [lstrip]; [reflexivity|].
  destruct (isspace c) eqn:E; [exact IH|]. cbn [lstrip]. now rewrite E.
Qed.

Lemma lstrip_head t : head_ok (lstrip t).
Proof.
  induction t as [|c t IH]; cbn [lstrip]; [exact I|].
  destruct (isspace c) eqn:E; [exact IH|exact E].
Qed.

Lemma lstrip_noop t : head_ok t -> lstrip t = t.
Proof. destruct t as [|c t]; cbn [lstrip head_ok]; [reflexivity|]. now intros ->. Qed.

Lemma lstrip_suffix t : exists p, t = p ++ lstrip t /\ Forall (fun c => isspace c = true) p.
Proof.
  induction t as [|c t (p & E & F)]; cbn [lstrip].
  - exists []; split; [reflexivity|constructor].
  - destruct (isspace c) eqn:Ec.
    + exists (c :: p); split; [simpl; congruence|constructor; assumption].
    + exists []; split; [reflexivity|constructor].
Qed.

Lemma lstrip_ws p s : forallb isspace p = true -> lstrip (p ++ s) = lstrip s.
Proof.
  induction p as [|c p IH]; intro H; [reflexivity|]. cbn [forallb] in H. apply andb_prop in H as [Hc H].
  cbn [app lstrip]. now rewrite Hc, IH.
Qed.

Lemma rstrip_head_ok t : head_ok t -> head_ok (rstrip t).
Proof.
  destruct t as [|c t]; [intros _; exact I|]. intro Hc.
  unfold rstrip. simpl rev.
  destruct (lstrip_suffix (rev t ++ [c])) as (p & E & F).
  remember (lstrip (rev t ++ [c])) as s eqn:Es.
  assert (rev (rev t ++ [c]) = rev (p ++ s)) as E' by congruence.
  rewrite rev_app_distr, rev_involutive in E'. simpl in E'.
  rewrite rev_app_distr in E'.
  destruct (rev s) as [|c' s'] eqn:Er.
  - (* s empty: then all of t is whitespace including c, contradiction *)
    simpl in E'. assert (In c (rev p)) as Hin by (rewrite <- E'; left; reflexivity).
    apply in_rev in Hin. rewrite Forall_forall in F. apply F in Hin. congruence.
  - simpl in E'. inversion E'; subst. exact Hc.
Qed.

Lemma strip_idem t : strip (strip t) = strip t.
Proof.
  unfold strip.
  pose proof (rstrip_head_ok (lstrip t) (lstrip_head t)) as H.
  rewrite (lstrip_noop _ H).
  unfold rstrip. rewrite rev_involutive, lstrip_idem. reflexivity.
Qed.

Lemma strip_stripped t : stripped (strip t).
Proof. apply strip_idem. Qed.

Lemma stripped_iff t : stripped t <-> head_ok t /\ head_ok (rev t).
Proof.
  unfold stripped, strip. split.
  - intro H. split.
    + rewrite <- H. apply rstrip_head_ok, lstrip_head.
    + rewrite <- H at 1. unfold rstrip. rewrite rev_involutive. apply lstrip_head.
  - intros [H1 H2]. rewrite (lstrip_noop t H1). unfold rstrip. rewrite (lstrip_noop _ H2). apply rev_involutive.
Qed.

Lemma stripped_join2 a sep b :
  stripped a -> stripped b -> isspace sep = false -> stripped (a ++ [sep] ++ b).
Proof.
  intros Ha Hb Hs. apply stripped_iff in Ha as [A1 A2]. apply stripped_iff in Hb as [B1 B2].
  apply stripped_iff. split.
  - destruct a; simpl; [exact Hs|exact A1].
  - rewrite !rev_app_distr. simpl. destruct (rev b); simpl; [exact Hs|exact B2].
Qed.

(* sep.join(parts) *)
Fixpoint join (sep : text) (parts : list text) : text :=
  match parts with
  | [] => []
  | [p] => p
  | p :: rest => p ++ sep ++ join sep rest
  end.

Definition DASH : text := [45%N].
Definition LPAREN : text := [40%N].
Definition RPAREN : text := [41%N].
Definition COMMA : text := [44%N].
Definition QUOTE : N := 34%N.
Definition NL : N := 10%N.

Lemma stripped_join_dash l : Forall stripped l -> stripped (join DASH l).
Proof.
  induction 1 as [|p l Hp Hl IH]; [reflexivity|]. destruct l as [|q l']; [exact Hp|].
  change (stripped (p ++ [45%N] ++ join DASH (q :: l'))). apply stripped_join2; [exact Hp|exact IH|reflexivity].
Qed.

Lemma stripped_paren a b : stripped a -> stripped (a ++ LPAREN ++ b ++ RPAREN).
Proof.
  intro Ha. apply stripped_iff in Ha as [A1 A2]. apply stripped_iff. split.
  - destruct a; [reflexivity|exact A1].
  - rewrite !rev_app_distr. reflexivity.
Qed.

(* A match on the literal 34 is compiled into a tree of matches on the binary digits of c, which this lemma
   takes apart; a definition that matches on another literal (13, 32, 45) is treated the same way where it
   is used. *)
Lemma match34 {A} (c : N) (x y : A) : match c with 34%N => x | _ => y end = if (c =? 34)%N then x else y.
Proof.
  destruct (N.eqb_spec c 34) as [->|NE]; [reflexivity|].
  destruct c as [|p]; [reflexivity|].
  do 6 (try (destruct p as [p|p|]; try reflexivity)). congruence.
Qed.

Fixpoint is_prefix (p t : text) : bool :=
  match p, t with
  | [], _ => true
  | x :: p', y :: t' => N.eqb x y && is_prefix p' t'
  | _ :: _, [] => false
  end.

(* str.__contains__ *)
Fixpoint contains (needle hay : text) : bool :=
  is_prefix needle hay ||
  match hay with
  | [] => false
  | _ :: hay' => contains needle hay'
  end.

Lemma is_prefix_spec p t : is_prefix p t = true <-> exists s, t = p ++ s.
Proof.
  revert t; induction p as [|x p IH]; intro t; simpl.
  - split; [intros _; exists t; reflexivity|reflexivity].
  - destruct t as [|y t]; [split; [discriminate|intros (s & E); discriminate]|].
    rewrite andb_true_iff, N.eqb_eq, IH. split.
    + intros (-> & s & ->). exists s; reflexivity.
    + intros (s & E). inversion E; subst. split; [reflexivity|exists s; reflexivity].
Qed.

Lemma is_prefix_app a b : is_prefix a (a ++ b) = true.
Proof. apply is_prefix_spec. now exists b. Qed.

Lemma is_prefix_app_inv w : forall p r, is_prefix w (p ++ r) = true -> is_prefix w p = true \/ is_prefix p w = true.
Proof.
  induction w as [|x w IH]; intros p r H; [now left|]. destruct p as [|y p]; [now right|].
  cbn [app is_prefix] in *. apply andb_prop in H as [E H]. apply N.eqb_eq in E. subst y.
  rewrite N.eqb_refl. exact (IH p r H).
Qed.

(* an occurrence that does not contain c cannot reach over a c *)
Lemma is_prefix_sep w c : forallb (fun x => negb (x =? c)%N) w = true ->
  forall a r, is_prefix w (a ++ c :: r) = true -> is_prefix w a = true.
Proof.
  induction w as [|x w IH]; intros NC a r H; [reflexivity|]. cbn [forallb] in NC. apply andb_prop in NC as [Nx NC].
  destruct a as [|y a]; cbn [app is_prefix] in *; apply andb_prop in H as [E H].
  - apply N.eqb_eq in E. subst. now rewrite N.eqb_refl in Nx.
  - rewrite E. exact (IH NC a r H).
Qed.

Lemma contains_spec needle hay :
  contains needle hay = true <-> exists a b, hay = a ++ needle ++ b.
Proof.
  induction hay as [|c hay IH]; simpl.
  - rewrite orb_false_r, is_prefix_spec. split.
    + intros (s & E). exists [], s. exact E.
    + intros (a & b & E). destruct a; [exists b; exact E|discriminate].
  - rewrite orb_true_iff, is_prefix_spec, IH. split.
    + intros [(s & E)|(a & b & E)]; [exists [], s; exact E|exists (c :: a), b; simpl; congruence].
    + intros (a & b & E). destruct a as [|c' a]; [left; exists b; exact E|].
      right. inversion E; subst. exists a, b; reflexivity.
Qed.

(* f s = v says that what a scanner looks for is not at the head of s.  In a piece p with nostart f v p it is at
   no position inside p, whatever text follows p: such pieces can be put together, and a scanner that only
   acts where f s <> v walks over them *)
Section NoStart.
  Context {B : Type} (f : text -> B) (v : B).

  Definition nostart (p : text) : Prop := forall a b r, p = a ++ b -> b <> [] -> f (b ++ r) = v.

  Lemma nostart_nil : nostart [].
  Proof. intros [|x a] [|y b] r E NB; try discriminate. congruence. Qed.

  Lemma nostart_cons c p : (forall r, f (c :: p ++ r) = v) -> nostart p -> nostart (c :: p).
  Proof.
    intros H HP [|x a] b r E NB.
    - cbn [app] in E. subst b. apply H.
    - injection E as _ E. exact (HP a b r E NB).
  Qed.

  Lemma nostart_head c p r : nostart (c :: p) -> f (c :: p ++ r) = v.
  Proof. intro H. apply (H [] (c :: p) r eq_refl). discriminate. Qed.

  Lemma nostart_tail c p : nostart (c :: p) -> nostart p.
  Proof. intros H a b r E NB. apply (H (c :: a) b r); [cbn [app]; now rewrite E|exact NB]. Qed.

  Lemma nostart_app p q : nostart p -> nostart q -> nostart (p ++ q).
  Proof.
    induction p as [|c p IH]; intros HP HQ; [exact HQ|]. apply nostart_cons.
    - intro r. rewrite <- app_assoc. apply nostart_head, HP.
    - apply IH; [exact (nostart_tail _ _ HP)|exact HQ].
  Qed.
End NoStart.

(* the word w starts nowhere inside p *)
Definition nocc (w : text) : text -> Prop := nostart (is_prefix w) false.

Lemma nocc_class (P : N -> bool) w p :
  match w with k :: _ => P k = false | [] => False end -> forallb P p = true -> nocc w p.
Proof.
  destruct w as [|k w']; [contradiction|]. intro K. induction p as [|c p IH]; intro H; [apply nostart_nil|].
  cbn [forallb] in H. apply andb_prop in H as [Hc Hp]. apply nostart_cons; [|exact (IH Hp)].
  intro r. cbn [is_prefix]. destruct (N.eqb_spec k c) as [->|]; [congruence|reflexivity].
Qed.

(* a closed piece: at every position w and the rest of the piece differ before either ends *)
Fixpoint noccb (w p : text) : bool :=
  match p with
  | [] => true
  | _ :: p' => negb (is_prefix w p) && negb (is_prefix p w) && noccb w p'
  end.

Lemma noccb_sound w p : noccb w p = true -> nocc w p.
Proof.
  induction p as [|c p IH]; intro H; [apply nostart_nil|]. cbn [noccb] in H.
  apply andb_prop in H as [H Hp]. apply andb_prop in H as [H1 H2]. apply negb_true_iff in H1, H2.
  apply nostart_cons; [|exact (IH Hp)]. intro r.
  destruct (is_prefix w (c :: p ++ r)) eqn:E; [|reflexivity].
  apply (is_prefix_app_inv w (c :: p) r) in E as [E|E]; congruence.
Qed.

Lemma nocc_sep w c p : forallb (fun x => negb (x =? c)%N) w = true -> contains w p = false -> nocc w (p ++ [c]).
Proof.
  intro NC. induction p as [|x p IH]; intro H; cbn [contains] in H; apply orb_false_elim in H as [H1 H2].
  - apply nostart_cons; [|apply nostart_nil]. intro r. destruct (is_prefix w (c :: [] ++ r)) eqn:E; [|reflexivity].
    apply (is_prefix_sep w c NC [] r) in E. congruence.
  - apply nostart_cons; [|exact (IH H2)]. intro r. rewrite <- app_assoc.
    destruct (is_prefix w (x :: p ++ [c] ++ r)) eqn:E; [|reflexivity].
    apply (is_prefix_sep w c NC (x :: p) r) in E. congruence.
Qed.

Lemma nocc_contains w p : w <> [] -> nocc w p -> contains w p = false.
Proof.
  intros NE H. destruct (contains w p) eqn:E; [|reflexivity]. exfalso.
  apply contains_spec in E as (a & b & E). destruct w as [|x w']; [congruence|].
  pose proof (H a ((x :: w') ++ b) [] E ltac:(discriminate)) as P. rewrite app_nil_r in P.
  assert (is_prefix (x :: w') ((x :: w') ++ b) = true) by (apply is_prefix_spec; now exists b). congruence.
Qed.
