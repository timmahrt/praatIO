(* Series/SeriesProofs.v -- the windowed filter computes the edge-clamped window; length and
   positions are preserved; median of an odd window; jump detection; listing rows (C20). *)
From PraatIO Require Import Series.SeriesModel.
Open Scope Z_scope.

Section StepFilterProofs.
  Context {V : Type} (d : V).

  (* the lastKnownLargeIndex bookkeeping is edge clamping.  Stated for a series of length S m and
     offsets S a, so that the clamped index is Nat.min _ m with no truncated subtraction in sight *)
  Lemma post_loop_clamp x m dist : forall n a lk,
    (if (lk =? 0)%nat then x else lk) = Nat.min (x + a) m ->
    post_loop d x (S m) dist (seq (S a) n) lk = map (fun y => nth (Nat.min (x + y) m) dist d) (seq (S a) n).
  Proof.
    induction n as [|n IH]; intros a lk Hlk; [reflexivity|].
    cbn [seq post_loop map]. rewrite Nat.add_succ_r. cbn [Nat.leb].
    destruct (m <=? x + a)%nat eqn:E.
    - (* past the end: the remembered index is the last one, and stays *)
      apply Nat.leb_le in E. rewrite Hlk, (Nat.min_r _ _ E), (Nat.min_r (S _) m) by (now apply Nat.le_le_succ_r).
      f_equal. apply IH. rewrite Hlk, (Nat.min_r _ _ E). symmetry. apply Nat.min_r.
      rewrite Nat.add_succ_r. now apply Nat.le_le_succ_r.
    - (* inside: x + S a is read and remembered *)
      apply Nat.leb_gt in E. rewrite (Nat.min_l (S _) m E). f_equal.
      apply IH. rewrite Nat.add_succ_r. symmetry. apply Nat.min_l, E.
  Qed.

  Lemma pre_loop_rev x dist ys : forall acc,
    pre_loop d x dist ys acc = rev (map (fun y => nth (x - y) dist d) ys) ++ acc.
  Proof.
    induction ys as [|y ys IH]; intro acc; [reflexivity|].
    cbn [pre_loop map rev]. rewrite IH, <- app_assoc. reflexivity.
  Qed.

  (* the window handed to the filter function: the o left neighbours (clamped at the first
     element), the element, the o right neighbours (clamped at the last element) *)
  Theorem window_at_spec dist o x : (x < length dist)%nat ->
    window_at d dist o x
    = rev (map (fun y => nth (x - y) dist d) (seq 1 o)) ++ [nth x dist d]
      ++ map (fun y => nth (Nat.min (x + y) (length dist - 1)) dist d) (seq 1 o).
  Proof.
    intro Hx. unfold window_at. rewrite pre_loop_rev, app_nil_r.
    destruct (length dist) as [|m]; [inversion Hx|]. apply le_S_n in Hx.
    rewrite (post_loop_clamp x m dist o 0 0), Nat.sub_succ, Nat.sub_0_r; [reflexivity|].
    cbn [Nat.eqb]. rewrite Nat.add_0_r. symmetry. apply Nat.min_l, Hx.
  Qed.

  (* the window is the series extended by its edge values, read from x-o to x+o *)
  Theorem window_is_clamped dist o x : (x < length dist)%nat ->
    window_at d dist o x = clamp_window d dist o x.
  Proof.
    intro Hx. rewrite window_at_spec by exact Hx. unfold clamp_window.
    replace (2 * o + 1)%nat with (o + (1 + o))%nat by lia.
    rewrite seq_app, map_app. rewrite rev_map_seq. f_equal.
    - apply map_ext_in. intros k Hk. apply in_seq in Hk. f_equal.
      rewrite Nat.min_l by lia. lia.
    - change (seq (0 + o) (1 + o)) with (o :: seq (S o) o). cbn [map app].
      rewrite Nat.add_sub, (Nat.min_l x) by lia. f_equal.
      rewrite <- (Nat.add_1_r o), seq_plus, map_map.
      apply map_ext. intro k. now replace (x + (o + k) - o)%nat with (x + k)%nat by lia.
  Qed.
End StepFilterProofs.

(* a window of half-width o has odd length, so its median is the middle of the sorted window *)
Theorem median_odd l o : length l = (2 * o + 1)%nat -> median2 l = 2 * nth o (zsort l) 0.
Proof.
  intro H. unfold median2. rewrite H.
  replace (2 * o + 1)%nat with (S (2 * o)) by lia. rewrite Nat.even_succ, Nat.odd_mul. simpl Nat.odd.
  replace (S (2 * o) / 2)%nat with o; [reflexivity|].
  apply Nat.div_unique with (r := 1%nat); lia.
Qed.

Theorem filter_rows_spec f rows index :
  length (f (map (fun r => nth index r 0) rows)) = length rows ->
  length (filter_rows f rows index) = length rows
  /\ forall k r, nth_error rows k = Some r ->
       exists v, nth_error (filter_rows f rows index) k = Some (replace_col r index v).
Proof.
  intro H. unfold filter_rows. set (col := f (map (fun r => nth index r 0) rows)) in *.
  split; [rewrite map_length, combine_length; lia|].
  intros k r Hk.
  assert (k < length rows)%nat as L by (apply nth_error_Some; congruence).
  destruct (nth_error col k) as [v|] eqn:Ev; [|apply nth_error_None in Ev; lia].
  exists v. rewrite nth_error_map.
  rewrite (nth_error_combine rows col k r v Hk Ev). reflexivity.
Qed.

Lemma replace_col_other {A} (row : list A) index v j d : (index < length row)%nat -> j <> index ->
  nth j (replace_col row index v) d = nth j row d /\ length (replace_col row index v) = length row.
Proof.
  intros L NE. unfold replace_col. split.
  - destruct (Nat.lt_ge_cases j index) as [Hj|Hj].
    + rewrite app_nth1 by (rewrite firstn_length; lia). apply nth_firstn_lt, Hj.
    + rewrite app_nth2 by (rewrite firstn_length; lia). rewrite firstn_length, Nat.min_l by lia.
      destruct (j - index)%nat as [|m] eqn:E; [lia|]. cbn [app nth].
      rewrite nth_skipn_add. f_equal. lia.
  - rewrite !app_length, firstn_length, skipn_length. simpl. lia.
Qed.

Lemma flagged_iff p c tn td :
  (p * td <=? c * tn) || (c * td <=? p * tn) = true <-> p * td <= c * tn \/ c * td <= p * tn.
Proof. now rewrite Bool.orb_true_iff, !Z.leb_le. Qed.

(* detectPitchErrors: index i + j is flagged iff, of the neighbours j and j + 1 of prev :: l, the earlier is at most
   the later times t or at least the later over t *)
Lemma detect_from_spec tn td : forall l i prev k,
  In k (detect_from i prev l tn td) <->
  exists j, k = (i + j)%nat /\ (j < length l)%nat /\
    (nth j (prev :: l) 0 * td <= nth (S j) (prev :: l) 0 * tn \/ nth (S j) (prev :: l) 0 * td <= nth j (prev :: l) 0 * tn).
Proof.
  induction l as [|cur l IH]; intros i prev k; cbn [detect_from length].
  - split; [intros []|intros (j & _ & H & _); inversion H].
  - rewrite in_app_iff, IH. split.
    + intros [H|(j & -> & L & H)].
      * destruct ((prev * td <=? cur * tn) || (cur * td <=? prev * tn)) eqn:E; [|destruct H].
        destruct H as [<-|[]]. exists 0%nat. split; [symmetry; apply Nat.add_0_r|].
        split; [apply Nat.lt_0_succ|apply flagged_iff, E].
      * exists (S j). split; [apply Nat.add_succ_comm|]. split; [apply -> Nat.succ_lt_mono; exact L|exact H].
    + intros (j & -> & L & H). destruct j as [|j].
      * left. apply flagged_iff in H. cbn [nth] in H. rewrite H. left. symmetry. apply Nat.add_0_r.
      * right. exists j. split; [symmetry; apply Nat.add_succ_comm|]. split; [apply Nat.succ_lt_mono, L|exact H].
Qed.

Theorem detect_errors_spec pitch tn td out : 0 <= tn <= td -> detect_errors pitch tn td = Ok out ->
  forall k, In k out <->
    (1 <= k < length pitch)%nat /\
    (nth (k - 1) pitch 0 * td <= nth k pitch 0 * tn \/ nth k pitch 0 * td <= nth (k - 1) pitch 0 * tn).
Proof.
  intros Ht. unfold detect_errors.
  assert ((tn <? 0) || (td <? tn) = false) as -> by lia.
  destruct pitch as [|p0 rest]; intros [= <-] k.
  - simpl. split; [tauto|lia].
  - rewrite detect_from_spec. cbn [length]. split.
    + intros (j & -> & L & H). split; [lia|]. cbn [Nat.add]. rewrite Nat.sub_succ, Nat.sub_0_r. exact H.
    + intros (L & H). destruct k as [|k]; [lia|]. rewrite Nat.sub_succ, Nat.sub_0_r in H.
      exists k. split; [reflexivity|]. split; [lia|exact H].
Qed.

Theorem detect_errors_rejects pitch tn td : tn < 0 \/ td < tn -> detect_errors pitch tn td = Err ArgumentError.
Proof.
  intro H. unfold detect_errors.
  assert ((tn <? 0) || (td <? tn) = true) as -> by lia. reflexivity.
Qed.

(* loadTimeSeriesData: a first row that starts with "time" is a header and is skipped *)
Theorem load_rows_header subst c0 r0 rest :
  load_rows subst ((c0 :: r0) :: rest)
  = Ok (filter_map (load_row subst) (if text_eqb c0 TIME then rest else (c0 :: r0) :: rest)).
Proof. reflexivity. Qed.

(* with a substitute every row is kept, in order, its undefined cells replaced *)
Theorem load_rows_subst u body : Forall (fun r => r <> []) body ->
  filter_map (load_row (Some u)) body
  = map (fun r => match r with t :: vals => t :: map (fun c => if undefined_cell c then u else c) vals | [] => [] end) body.
Proof.
  induction 1 as [|r body Hr _ IH]; [reflexivity|]. destruct r as [|t vals]; [congruence|]. simpl. now rewrite IH.
Qed.

(* without one exactly the rows holding an undefined cell are dropped *)
Theorem load_rows_skip body : Forall (fun r => r <> []) body ->
  filter_map (load_row None) body = filter (fun r => negb (existsb undefined_cell (tl r))) body.
Proof.
  induction 1 as [|r body Hr _ IH]; [reflexivity|]. destruct r as [|t vals]; [congruence|]. simpl.
  destruct (existsb undefined_cell vals); simpl; now rewrite IH.
Qed.
