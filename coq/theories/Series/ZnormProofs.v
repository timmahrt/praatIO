(* Series/ZnormProofs.v -- z-normalisation, rms and the pitch measures over the reals (C20).
   Uses the standard library's real numbers (its axioms are reported by Print Assumptions). *)
From Coq Require Import Rbase R_sqrt Lra List.
Import ListNotations.
Open Scope R_scope.

Fixpoint rsum (l : list R) : R := match l with [] => 0 | x :: l' => x + rsum l' end.
Definition rmean (l : list R) : R := rsum l / INR (length l).
Definition sumsq (m : R) (l : list R) : R := rsum (map (fun v => (v - m) * (v - m)) l).
(* statistics.stdev: sample standard deviation *)
Definition svar (l : list R) : R := sumsq (rmean l) l / (INR (length l) - 1).
Definition sdev (l : list R) : R := sqrt (svar l).
(* my_math.znormalizeData *)
Definition znorm (l : list R) : list R := map (fun v => (v - rmean l) / sdev l) l.
(* my_math.rms *)
Definition rms (l : list R) : R := sqrt (rsum (map (fun v => v * v) l) / INR (length l)).
(* getPitchMeasures: population variance and deviation *)
Definition pvar (l : list R) : R := sumsq (rmean l) l / INR (length l).
Definition pdev (l : list R) : R := sqrt (pvar l).

Lemma rsum_map_div (g : R -> R) c l : rsum (map (fun v => g v / c) l) = rsum (map g l) / c.
Proof. induction l as [|x l IH]; cbn [map rsum]; [|rewrite IH]; unfold Rdiv; ring. Qed.

Lemma rsum_shift_scale m s l : rsum (map (fun v => (v - m) / s) l) = (rsum l - INR (length l) * m) / s.
Proof.
  rewrite (rsum_map_div (fun v => v - m)). f_equal.
  induction l as [|x l IH]; cbn [map rsum length]; [simpl; ring|rewrite IH, S_INR; ring].
Qed.

Lemma rsum_sqr_nonneg (f : R -> R) l : 0 <= rsum (map (fun v => f v * f v) l).
Proof.
  induction l as [|x l IH]; simpl; [lra|].
  pose proof (Rle_0_sqr (f x)) as H. unfold Rsqr in H. lra.
Qed.

Lemma sumsq_shift_scale m s l : s <> 0 ->
  sumsq 0 (map (fun v => (v - m) / s) l) = sumsq m l / (s * s).
Proof.
  intro Hs. unfold sumsq. rewrite map_map, <- (rsum_map_div (fun v => (v - m) * (v - m))).
  f_equal. apply map_ext. intro v. field. exact Hs.
Qed.

Lemma INR_len_pos {A} (l : list A) : l <> [] -> 0 < INR (length l).
Proof. destruct l; [congruence|]. intros _. apply lt_0_INR. simpl. apply Nat.lt_0_succ. Qed.

Theorem znorm_length l : length (znorm l) = length l.
Proof. unfold znorm. apply map_length. Qed.

Theorem znorm_mean_zero l : l <> [] -> sdev l <> 0 -> rmean (znorm l) = 0.
Proof.
  intros NE Hs. unfold rmean at 1. rewrite znorm_length. unfold znorm.
  rewrite rsum_shift_scale. unfold rmean. pose proof (INR_len_pos l NE). field. split; [lra|exact Hs].
Qed.

Theorem znorm_sd_one l : (2 <= length l)%nat -> 0 < svar l -> sdev (znorm l) = 1.
Proof.
  intros Hn Hv.
  assert (l <> []) as NE by (destruct l; [simpl in Hn; inversion Hn|discriminate]).
  assert (0 < sdev l) as Hs by (apply sqrt_lt_R0; exact Hv).
  assert (sdev l <> 0) as Hs0 by lra.
  assert (1 < INR (length l)) as Hn1.
  { replace 1 with (INR 1) by reflexivity. apply lt_INR. unfold lt. exact Hn. }
  unfold sdev at 1, svar at 1. rewrite (znorm_mean_zero l NE Hs0), znorm_length. unfold znorm.
  rewrite (sumsq_shift_scale _ _ _ Hs0).
  assert (sdev l * sdev l = svar l) as E by (unfold sdev; apply sqrt_sqrt; lra).
  rewrite E. unfold svar at 1.
  replace (sumsq (rmean l) l / (sumsq (rmean l) l / (INR (length l) - 1)) / (INR (length l) - 1)) with 1.
  - apply sqrt_1.
  - unfold svar in Hv. assert (sumsq (rmean l) l <> 0) as NZ.
    { intro Z. rewrite Z in Hv. unfold Rdiv in Hv. rewrite Rmult_0_l in Hv. lra. }
    field. split; [lra|exact NZ].
Qed.

Theorem znorm_nth l i : (i < length l)%nat -> nth i (znorm l) 0 = (nth i l 0 - rmean l) / sdev l.
Proof.
  intro H. unfold znorm.
  rewrite (nth_indep _ 0 ((0 - rmean l) / sdev l)) by (rewrite map_length; exact H).
  apply (map_nth (fun v => (v - rmean l) / sdev l) l 0 i).
Qed.

Theorem rms_sqr l : l <> [] -> rms l * rms l = rsum (map (fun v => v * v) l) / INR (length l).
Proof.
  intro NE. unfold rms. apply sqrt_sqrt.
  exact (Rle_mult_inv_pos _ _ (rsum_sqr_nonneg (fun v => v) l) (INR_len_pos l NE)).
Qed.

Theorem pdev_sqr l : l <> [] -> pdev l * pdev l = pvar l /\ 0 <= pdev l.
Proof.
  intro NE. unfold pdev. split; [|apply sqrt_pos]. apply sqrt_sqrt.
  exact (Rle_mult_inv_pos _ _ (rsum_sqr_nonneg (fun v => v - rmean l) l) (INR_len_pos l NE)).
Qed.
