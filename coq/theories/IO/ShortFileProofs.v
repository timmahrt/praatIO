(* IO/ShortFileProofs.v -- the short text form read back: the row readers consume exactly one written
   line each, so parsing what the writer printed gives back the tiers, names, spans and entries (C01),
   given that the class keywords occur in the text only where tiers start (chunk_ok). *)
From Coq Require Import String.
From PraatIO Require Import IO.IoModel IO.CodecProofs IO.CrlfProofs.
Open Scope Z_scope.

Definition rd_tier (tab : numtab) (t : dtier) : rtier :=
  mkRT (d_isint t) (strip (d_name t)) (num_str (lookup tab (d_xmin t))) (num_str (lookup tab (d_xmax t)))
       (map (rd_entry tab) (d_ents t)).

Definition rd_tg (tab : numtab) (g : dtg) : rtg :=
  mkRTG (num_str (lookup tab (dg_xmin g))) (num_str (lookup tab (dg_xmax g))) (map (rd_tier tab) (dg_tiers g)).

Definition short_header (tab : numtab) (g : dtg) : text :=
  HEADER ++ num_str (lookup tab (dg_xmin g)) ++ NL1 ++ num_str (lookup tab (dg_xmax g)) ++ NL1
  ++ T "<exists>" ++ NL1 ++ nat_to_text (length (dg_tiers g)) ++ NL1.

(* the side condition: cutting the text at the class keywords finds exactly the tiers *)
Definition chunk_ok (tab : numtab) (g : dtg) : bool :=
  let data := print_short tab g in
  list_eqb (fun a b => option_eqb Bool.eqb (fst a) (fst b) && text_eqb (snd a) (snd b))
           (short_blocks (S (length data)) data [] None [])
           ((None, short_header tab g) :: map (fun t => (Some (d_isint t), short_tier tab t)) (dg_tiers g)).

Definition tier_ok (tab : numtab) (t : dtier) : bool :=
  plain_tok (num_str (lookup tab (d_xmin t))) && plain_tok (num_str (lookup tab (d_xmax t)))
  && forallb (times_plain tab) (d_ents t)
  && (if d_isint t then forallb is_DIb (d_ents t) else forallb (fun e => negb (is_DIb e)) (d_ents t)).

Definition nonl (l : text) : bool := forallb (fun c => negb (c =? 10)%N) l.

Lemma plain_nonl t : plain_tok t = true -> nonl t = true.
Proof.
  unfold plain_tok. destruct t as [|c t]; [discriminate|]. apply forallb_impl. intros x H.
  apply andb_prop in H as [Hs _]. destruct (N.eqb_spec x 10) as [->|]; [discriminate Hs|reflexivity].
Qed.

Lemma nat_to_text_plain n : plain_tok (nat_to_text n) = true.
Proof.
  pose proof (nat_to_text_ne n) as NE. unfold plain_tok. destruct (nat_to_text n) eqn:E; [congruence|]. rewrite <- E.
  refine (forallb_impl _ _ _ _ (nat_to_text_digits n)). unfold isdigit, isspace, isq. lia.
Qed.

(* _fetchRow on any non-blank line: the position after the line *)
Lemma fetch_row_skips line rest : nonl line = true -> strip line <> [] ->
  exists w, fetch_row (line ++ 10%N :: rest) = Ok (w, rest).
Proof.
  intros NL NB. unfold fetch_row. rewrite take_line_app by exact NL.
  destruct (strip line) as [|c0 w'] eqn:E; [congruence|].
  destruct (last_opt (c0 :: w')) as [cl|] eqn:EL; [eexists; reflexivity|].
  exfalso. exact (last_opt_cons _ _ EL).
Qed.

Lemma entries_length tab ents : (length ents <= length (flat_map (short_entry tab) ents))%nat.
Proof.
  induction ents as [|e ents IH]; [simpl; lia|]. cbn [flat_map length]. rewrite app_length.
  assert (short_entry tab e <> []) as NE by (destruct e; cbn [short_entry]; destruct (num_str _); discriminate).
  destruct (short_entry tab e); [congruence|]. cbn [length]. lia.
Qed.

Theorem parse_short_tier_printed tab t : tier_ok tab t = true ->
  parse_short_tier (d_isint t) (short_tier tab t) = Ok (rd_tier tab t).
Proof.
  intro H. unfold tier_ok in H. apply andb_prop in H as [H HK]. apply andb_prop in H as [H HT].
  apply andb_prop in H as [P1 P2].
  unfold parse_short_tier, short_tier, NL1. cbn [app].
  assert (exists w, forall r, fetch_row (Q1 ++ class_name (d_isint t) ++ Q1 ++ 10%N :: r) = Ok (w, r)) as (w & FR).
  { destruct (d_isint t); eexists; intro r; vm_compute; reflexivity. }
  rewrite FR. cbn [bind snd fst]. rewrite fetch_text_row_quoted. cbn [bind snd fst].
  rewrite (fetch_row_plain _ _ P1). cbn [bind snd fst]. rewrite (fetch_row_plain _ _ P2). cbn [bind snd fst].
  rewrite (fetch_row_plain _ _ (nat_to_text_plain _)). cbn [bind snd fst].
  unfold rd_tier. f_equal. f_equal.
  pose proof (entries_length tab (d_ents t)) as L.
  destruct (d_isint t).
  - apply short_intervals_printed; [exact HK|exact HT|lia].
  - apply short_points_printed; [exact HK|exact HT|lia].
Qed.

Lemma mapM_tiers_printed tab tiers : forallb (tier_ok tab) tiers = true ->
  mapM_tiers (map (fun t => (Some (d_isint t), short_tier tab t)) tiers) = Ok (map (rd_tier tab) tiers).
Proof.
  induction tiers as [|t tiers IH]; intro H; [reflexivity|].
  cbn [forallb] in H. apply andb_prop in H as [Ht Hr].
  cbn [map mapM_tiers]. rewrite (parse_short_tier_printed tab t Ht). cbn [bind]. rewrite (IH Hr). reflexivity.
Qed.

Lemma header_nth a b r : nonl a = true -> nonl b = true ->
  nth_error (split_nl (HEADER ++ a ++ 10%N :: b ++ 10%N :: r)) 3 = Some a
  /\ nth_error (split_nl (HEADER ++ a ++ 10%N :: b ++ 10%N :: r)) 4 = Some b.
Proof.
  intros A B.
  change (HEADER ++ ?x) with (T "File type = ""ooTextFile""" ++ 10%N :: (T "Object class = ""TextGrid""" ++ 10%N :: ([] ++ 10%N :: x))).
  rewrite !split_nl_line by first [reflexivity|assumption]. split; reflexivity.
Qed.

Lemma header_lines tab g :
  plain_tok (num_str (lookup tab (dg_xmin g))) = true -> plain_tok (num_str (lookup tab (dg_xmax g))) = true ->
  nth_error (split_nl (short_header tab g)) 3 = Some (num_str (lookup tab (dg_xmin g)))
  /\ nth_error (split_nl (short_header tab g)) 4 = Some (num_str (lookup tab (dg_xmax g))).
Proof. intros A B. exact (header_nth _ _ _ (plain_nonl _ A) (plain_nonl _ B)). Qed.

Lemma chunk_ok_spec tab g : chunk_ok tab g = true <->
  short_blocks (S (length (print_short tab g))) (print_short tab g) [] None []
  = (None, short_header tab g) :: map (fun t => (Some (d_isint t), short_tier tab t)) (dg_tiers g).
Proof.
  apply list_eqb_eq. intros [a1 a2] [b1 b2]. cbn [fst snd]. rewrite andb_true_iff, text_eqb_eq. split.
  - intros [E1 E2]. f_equal; [|exact E2]. destruct a1 as [x|], b1 as [y|]; try discriminate; [|reflexivity].
    apply Bool.eqb_prop in E1. now subst.
  - intros [= -> ->]. split; [|reflexivity]. destruct b1 as [y|]; [apply Bool.eqb_reflx|reflexivity].
Qed.

Theorem parse_short_printed tab g :
  dg_tiers g <> [] -> chunk_ok tab g = true ->
  forallb (fun c => negb (c =? 13)%N) (print_short tab g) = true ->
  plain_tok (num_str (lookup tab (dg_xmin g))) = true -> plain_tok (num_str (lookup tab (dg_xmax g))) = true ->
  forallb (tier_ok tab) (dg_tiers g) = true ->
  parse_short (print_short tab g) = Ok (rd_tg tab g).
Proof.
  intros NE CH CR A B TK. unfold parse_short. rewrite (crlf_nocr _ CR).
  apply chunk_ok_spec in CH. rewrite CH.
  destruct (dg_tiers g) as [|t0 ts] eqn:ET; [congruence|]. rewrite <- ET in *.
  destruct (map (fun t => (Some (d_isint t), short_tier tab t)) (dg_tiers g)) as [|b bs] eqn:EM; [rewrite ET in EM; discriminate|].
  rewrite <- EM. destruct (header_lines tab g A B) as [H3 H4]. rewrite H3, H4.
  rewrite (mapM_tiers_printed tab _ TK). cbn [bind].
  rewrite !strip_plain; [reflexivity| |].
  - unfold plain_tok in B. destruct (num_str (lookup tab (dg_xmax g))); [discriminate|exact B].
  - unfold plain_tok in A. destruct (num_str (lookup tab (dg_xmin g))); [discriminate|exact A].
Qed.
