(* IO/NearInt.v -- my_math.numToStr's choice of form, on exact rationals: a non-negative time x = n/d is written as the
   integer int(x) when x - int(x) <= 1e-14 * max(x, int(x)) = 1e-14 * x (isclose with its default tolerances), else with all
   its digits.  Far from 0 the rule maps DIFFERENT times to one integer (known finding F23). *)
From Coq Require Import ZArith Lia.
Open Scope Z_scope.

Definition near_int (n d : Z) : bool := (n - (n / d) * d) * 10 ^ 14 <=? n.

(* what is written for n/d: Some k = the integer k, None = the full binary64 digits *)
Definition written_as_int (n d : Z) : option Z := if near_int n d then Some (n / d) else None.

(* at ordinary magnitudes the rule only absorbs rounding noise: 1000.001 s is not written as an integer *)
Lemma near_int_small_example : written_as_int (1000 * 1000 + 1) 1000 = None.
Proof. vm_compute. reflexivity. Qed.

(* near 1e13 s two different times 1/32 s apart are written as the same integer *)
Lemma near_int_collapse :
  let d := 32 in let x := (10 ^ 13 + 1) * 32 + 1 in let y := (10 ^ 13 + 1) * 32 + 2 in
  x < y /\ written_as_int x d = Some (10 ^ 13 + 1) /\ written_as_int y d = Some (10 ^ 13 + 1).
Proof. vm_compute. repeat split; reflexivity. Qed.
