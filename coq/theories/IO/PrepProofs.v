(* IO/PrepProofs.v -- what _fillInBlanks / _removeUltrashortIntervals /
   _prepTgForSaving do to a well-formed tier (C02 partition clause, C04). *)
From PraatIO Require Import IO.PrepSpec.
Open Scope Z_scope.

(* before lia runs, settle the implications whose premise stands in the context, as in IO/CodecProofs.v: without
   it the lia calls of this file cost twice as much to check *)
Ltac Zify.zify_post_hook ::= Z.euclidean_division_equations_cleanup.

Lemma partitionb_app lo a b :
  partitionb lo (a ++ b) = match partitionb lo a with Some m => partitionb m b | None => None end.
Proof.
  revert lo; induction a as [|e a IH]; intro lo; simpl; [reflexivity|].
  destruct ((ds e =? lo) && (ds e <? de e)); [apply IH|reflexivity].
Qed.

Lemma partitionb_cons lo e l hi :
  partitionb lo (e :: l) = Some hi <-> ds e = lo /\ ds e < de e /\ partitionb (de e) l = Some hi.
Proof.
  cbn [partitionb]. destruct (Z.eqb_spec (ds e) lo) as [E|E], (Z.ltb_spec (ds e) (de e)) as [L|L]; cbn [andb];
    (split; [try discriminate; auto|intros (A & B & C); first [exact C|lia]]).
Qed.

Lemma partitionb_snoc lo l e hi :
  partitionb lo (l ++ [e]) = Some hi <-> exists m, partitionb lo l = Some m /\ ds e = m /\ m < de e /\ hi = de e.
Proof.
  rewrite partitionb_app. destruct (partitionb lo l) as [m|].
  - rewrite partitionb_cons. cbn [partitionb]. split.
    + intros (A & B & [= <-]). exists m. repeat split; trivial; lia.
    + intros (m' & [= <-] & A & B & ->). repeat split; trivial; lia.
  - split; [discriminate|intros (m & H & _); discriminate].
Qed.

Lemma last_opt_partition : forall l a lo hi,
  partitionb lo (a :: l) = Some hi -> exists e, last_opt (a :: l) = Some e /\ de e = hi.
Proof.
  induction l as [|b l IH]; intros a lo hi HP; apply partitionb_cons in HP as (_ & _ & HP).
  - exists a. split; [reflexivity|]. now injection HP.
  - exact (IH b _ _ HP).
Qed.

Lemma partition_le : forall l lo hi, partitionb lo l = Some hi -> lo <= hi.
Proof.
  induction l as [|a l IH]; intros lo hi HP; [injection HP as <-; lia|].
  apply partitionb_cons in HP as (E1 & E2 & HP). specialize (IH _ _ HP). lia.
Qed.

Lemma partition_positive lo l hi : partitionb lo l = Some hi -> Forall (fun e => 0 < dlen e) l.
Proof.
  revert lo; induction l as [|e l IH]; intros lo H; [constructor|].
  apply partitionb_cons in H as (_ & L & H). constructor; [unfold dlen; lia|exact (IH _ H)].
Qed.

(* incr is chain without the upper bound *)
Fixpoint incr (lo : Z) (l : list dentry) : Prop :=
  match l with
  | [] => True
  | e :: l' => is_DI e /\ lo <= ds e /\ ds e < de e /\ incr (de e) l'
  end.

Lemma chain_incr lo l hi : chain lo l hi -> incr lo l.
Proof. revert lo; induction l as [|e l IH]; intro lo; simpl; [trivial|]. intros (A & B & C & D). auto. Qed.

(* a point has no positive length *)
Lemma lt_is_DI e : ds e < de e -> is_DI e.
Proof. destruct e; cbn [ds de is_DI]; [trivial|lia]. Qed.

Lemma partition_incr lo l hi : partitionb lo l = Some hi -> incr lo l.
Proof.
  revert lo; induction l as [|e l IH]; intros lo H; [exact I|].
  apply partitionb_cons in H as (E & L & H). cbn [incr].
  split; [exact (lt_is_DI e L)|]. split; [lia|]. split; [exact L|exact (IH _ H)].
Qed.

Lemma incr_weaken lo lo' l : lo' <= lo -> incr lo l -> incr lo' l.
Proof. destruct l as [|e l]; simpl; [trivial|]. intros H (A & B & C & D). repeat split; auto; lia. Qed.

Lemma incr_sorted lo l : incr lo l -> StronglySorted (lebP dleb) l.
Proof.
  apply (chain_sorted ds de is_DI dleb incr); [|cbn; tauto].
  intros [s e l'|] [s' e' l''|]; simpl; try tauto. intros _ H.
  unfold dleb, dcmp, icmp; simpl. apply Z.compare_lt_iff in H. now rewrite H.
Qed.

(* positive intervals in time order are sorted for the tuple order the code sorts with, so its sorts are the identity *)
Lemma dsort_incr lo l : incr lo l -> dsort l = l.
Proof. intro H. apply isort_sorted_id. eapply incr_sorted, H. Qed.

Lemma dsort_partition lo l hi : partitionb lo l = Some hi -> dsort l = l.
Proof. intro H. exact (dsort_incr _ _ (partition_incr _ _ _ H)). Qed.

Definition endof (p : Z) (l : list dentry) : Z := fold_left (fun _ e => de e) l p.

Lemma fill_spec_gaps p l hi :
  fill_spec p l hi = fill_gaps p l ++ (if endof p l <? hi then [DI (endof p l) hi []] else []).
Proof.
  revert p; induction l as [|e l IH]; intro p; simpl; [reflexivity|].
  rewrite IH. unfold endof; simpl. rewrite <- app_assoc. reflexivity.
Qed.

Lemma last_fill_gaps l : forall e pre,
  exists el, last_opt (pre ++ e :: fill_gaps (de e) l) = Some el /\ de el = endof (de e) l.
Proof.
  induction l as [|e' l IH]; intros e pre; simpl.
  - exists e. split; [|reflexivity]. change (pre ++ [e]) with (pre ++ [e]). apply last_opt_snoc.
  - destruct (IH e' (pre ++ e :: (if de e <? ds e' then [DI (de e) (ds e') []] else []))) as (el & H1 & H2).
    exists el. split; [|exact H2].
    rewrite <- H1. f_equal. rewrite <- app_assoc. reflexivity.
Qed.

Lemma chain_endof lo l hi : chain lo l hi -> lo <= endof lo l <= hi.
Proof.
  revert lo; induction l as [|e l IH]; intro lo; unfold endof; simpl; [lia|].
  intros (A & B & C & D). apply IH in D. unfold endof in D. lia.
Qed.

Lemma fill_spec_partition lo l hi : chain lo l hi -> partitionb lo (fill_spec lo l hi) = Some hi.
Proof.
  revert lo; induction l as [|e l IH]; intro lo; cbn [chain fill_spec].
  - intro H. destruct (Z.ltb_spec lo hi) as [L|L]; [apply partitionb_cons; cbn; auto|cbn; f_equal; lia].
  - intros (_ & B & C & D). destruct (Z.ltb_spec lo (ds e)) as [L|L]; cbn [app].
    + apply partitionb_cons. cbn [ds de]. split; [reflexivity|]. split; [exact L|].
      apply partitionb_cons. split; [reflexivity|]. split; [exact C|exact (IH _ D)].
    + apply partitionb_cons. split; [lia|]. split; [exact C|exact (IH _ D)].
Qed.

Lemma fill_spec_labelled lo l hi : labelled (fill_spec lo l hi) = labelled l.
Proof.
  revert lo; induction l as [|e l IH]; intro lo; simpl.
  - destruct (lo <? hi); reflexivity.
  - unfold labelled in *. rewrite filter_app. simpl. rewrite IH.
    destruct (lo <? ds e); reflexivity.
Qed.

Lemma fill_spec_only_blanks lo l hi x : In x (fill_spec lo l hi) -> In x l \/ is_blank x = true.
Proof.
  revert lo; induction l as [|e l IH]; intro lo; simpl.
  - destruct (lo <? hi); simpl; [intros [<-|[]]; right; reflexivity|tauto].
  - rewrite in_app_iff. simpl. intros [H|[H|H]].
    + destruct (lo <? ds e); simpl in H; [destruct H as [<-|[]]; right; reflexivity|contradiction].
    + auto.
    + destruct (IH _ H); auto.
Qed.

Lemma fill_spec_keeps lo l hi x : In x l -> In x (fill_spec lo l hi).
Proof.
  revert lo; induction l as [|e l IH]; intro lo; simpl; [tauto|].
  rewrite in_app_iff. simpl. intros [H|H]; [auto|right; right; apply IH, H].
Qed.

(* on a non-empty list that starts inside the span the function is the single-pass specification,
   unless the last end lies beyond the span *)
Lemma fill_blanks_cons minT maxT e0 rest : minT <= ds e0 ->
  fill_blanks minT maxT (e0 :: rest) =
  if maxT <? endof (de e0) rest then Err ParsingError else Ok (dsort (fill_spec minT (e0 :: rest) maxT)).
Proof.
  intro H. cbv beta iota zeta delta [fill_blanks]. assert (ds e0 <? minT = false) as -> by lia.
  destruct (last_fill_gaps rest e0 (if minT <? ds e0 then [DI minT (ds e0) []] else [])) as (el & H1 & H2).
  replace (if minT <? ds e0 then DI minT (ds e0) [] :: e0 :: fill_gaps (de e0) rest else e0 :: fill_gaps (de e0) rest)
    with ((if minT <? ds e0 then [DI minT (ds e0) []] else []) ++ e0 :: fill_gaps (de e0) rest)
    by (destruct (minT <? ds e0); reflexivity).
  rewrite H1, H2. destruct (maxT <? endof (de e0) rest); [reflexivity|]. do 2 f_equal.
  cbn [fill_spec]. rewrite fill_spec_gaps.
  destruct (endof (de e0) rest <? maxT); [now rewrite <- app_assoc|now rewrite !app_nil_r].
Qed.

Lemma fill_blanks_spec minT maxT l :
  chain minT l maxT -> (l <> [] \/ minT < maxT) ->
  fill_blanks minT maxT l = Ok (fill_spec minT l maxT).
Proof.
  intros C NE. destruct l as [|e0 rest].
  - destruct NE as [NE|NE]; [congruence|]. unfold fill_blanks. simpl.
    assert (minT <? minT = false) as -> by lia. simpl.
    assert (maxT <? maxT = false) as -> by lia.
    assert (minT <? maxT = true) as -> by lia. reflexivity.
  - pose proof C as (_ & B & _ & D). apply chain_endof in D. rewrite fill_blanks_cons by exact B.
    assert (maxT <? endof (de e0) rest = false) as -> by lia.
    f_equal. exact (dsort_partition _ _ _ (fill_spec_partition _ _ _ C)).
Qed.

Lemma fill_blanks_raises_high minT maxT l lo :
  chain lo l (endof lo l) -> l <> [] -> minT <= lo -> maxT < endof lo l ->
  fill_blanks minT maxT l = Err ParsingError.
Proof.
  intros C NE Hlo Hhi. destruct l as [|e0 rest]; [congruence|]. destruct C as (_ & B & _).
  change (endof lo (e0 :: rest)) with (endof (de e0) rest) in Hhi.
  rewrite fill_blanks_cons by lia. assert (maxT <? endof (de e0) rest = true) as -> by lia. reflexivity.
Qed.

Section Ultra.
  Context (thr : Z * Z) (Hden : 0 < snd thr) (minT : Z).

  Lemma long_mono a b : dlen a <= dlen b -> long thr a = true -> long thr b = true.
  Proof.
    unfold long, below. intros H. rewrite !negb_true_iff, !Z.ltb_ge. nia.
  Qed.

  Lemma pass1_app l1 l2 acc :
    ultra_pass1 thr minT (l1 ++ l2) acc = ultra_pass1 thr minT l2 (rev (ultra_pass1 thr minT l1 acc)).
  Proof.
    revert acc; induction l1 as [|e l1 IH]; intro acc; simpl; [now rewrite rev_involutive|].
    destruct (below thr (de e - ds e)); destruct acc; apply IH.
  Qed.

  Lemma pass2_partition lo l hi : partitionb lo l = Some hi -> ultra_pass2 thr l = l.
  Proof.
    revert lo; induction l as [|a l IH]; intros lo H; [reflexivity|]. cbn [ultra_pass2].
    apply partitionb_cons in H as (_ & _ & H). destruct l as [|b l']; [reflexivity|].
    rewrite (IH _ H). apply partitionb_cons in H as (E & _ & _). now rewrite E, Z.sub_diag.
  Qed.

  (* after the first entry is written (lst :: acc, last first) every interval is appended or absorbed by lst *)
  Lemma pass1_inv_ne hi l : forall lst acc p,
    partitionb p l = Some hi -> partitionb minT (rev (lst :: acc)) = Some p ->
    forallb (long thr) (lst :: acc) = true ->
    partitionb minT (ultra_pass1 thr minT l (lst :: acc)) = Some hi
    /\ forallb (long thr) (ultra_pass1 thr minT l (lst :: acc)) = true.
  Proof.
    induction l as [|e l IH]; intros lst acc p HP HA HL; cbn [ultra_pass1].
    - injection HP as <-. now rewrite forallb_rev.
    - apply partitionb_cons in HP as (E1 & E2 & HP).
      fold (dlen e). destruct (below thr (dlen e)) eqn:B; apply (IH _ _ (de e) HP).
      + cbn [rev] in *. apply partitionb_snoc in HA as (m & PM & E3 & E4 & E5).
        apply partitionb_snoc. exists m. cbn [ds de]. repeat split; trivial; lia.
      + cbn [forallb] in *. apply andb_prop in HL as [HL1 HL2].
        rewrite HL2, andb_true_r. eapply long_mono; [|exact HL1]. unfold dlen; cbn [ds de].
        cbn [rev] in HA. apply partitionb_snoc in HA as (m & _ & E3 & E4 & E5). lia.
      + change (rev (DI (ds e) (de e) (dl e) :: lst :: acc)) with (rev (lst :: acc) ++ [DI (ds e) (de e) (dl e)]).
        apply partitionb_snoc. exists p. cbn [ds de]. repeat split; trivial; lia.
      + change (forallb (long thr) (DI (ds e) (de e) (dl e) :: lst :: acc))
          with (negb (below thr (dlen e)) && forallb (long thr) (lst :: acc)).
        now rewrite B, HL.
  Qed.

  (* until then the short intervals are dropped; the first long one is stretched back to minT *)
  Lemma pass1_inv hi l : forall p,
    partitionb p l = Some hi -> minT <= p -> existsb (long thr) l = true ->
    partitionb minT (ultra_pass1 thr minT l []) = Some hi
    /\ forallb (long thr) (ultra_pass1 thr minT l []) = true.
  Proof.
    induction l as [|e l IH]; intros p HP Hp HE; [discriminate|].
    apply partitionb_cons in HP as (E1 & E2 & HP). cbn [ultra_pass1 existsb] in *.
    unfold long at 1 in HE. fold (dlen e). destruct (below thr (dlen e)) eqn:B.
    - apply (IH (de e) HP); [lia|exact HE].
    - apply (pass1_inv_ne hi l _ [] (de e) HP).
      + apply partitionb_cons. destruct (Z.eqb_spec (ds e) minT); cbn; repeat split; trivial; lia.
      + cbn [forallb]. rewrite andb_true_r. apply (long_mono e); [|unfold long; now rewrite B].
        destruct (ds e =? minT); unfold dlen; cbn; lia.
  Qed.

  Lemma pass1_labels l : forall acc,
    map dl (ultra_pass1 thr minT l acc) = map dl (rev acc) ++ map dl (filter (long thr) l).
  Proof.
    induction l as [|e l IH]; intro acc; [simpl; now rewrite app_nil_r|].
    assert (long thr e = negb (below thr (de e - ds e))) as EL by reflexivity.
    cbn [ultra_pass1 filter]. rewrite EL. destruct (below thr (de e - ds e)); cbn [negb].
    - destruct acc as [|lst acc']; rewrite IH; [reflexivity|]. simpl. rewrite !map_app. reflexivity.
    - destruct acc as [|lst acc']; rewrite IH; simpl.
      + destruct (negb (ds e =? minT)); reflexivity.
      + rewrite !map_app. simpl. rewrite <- !app_assoc. reflexivity.
  Qed.

  Lemma pass1_keeps_tail y l : forall acc, In y (tl acc) -> In y (ultra_pass1 thr minT l acc).
  Proof.
    induction l as [|e l IH]; intros acc H; simpl.
    - apply in_rev. rewrite rev_involutive. destruct acc; [contradiction|right; exact H].
    - destruct (below thr (de e - ds e)); destruct acc as [|lst acc']; try contradiction;
        apply IH; simpl in *; auto.
  Qed.

  Lemma pass1_all_short l : existsb (long thr) l = false -> ultra_pass1 thr minT l [] = [].
  Proof.
    induction l as [|e l IH]; simpl; [reflexivity|].
    unfold long at 1. fold (dlen e). destruct (below thr (dlen e)); simpl; [exact IH|discriminate].
  Qed.

  Lemma pass1_acc_nonempty l : forall acc, acc <> [] -> ultra_pass1 thr minT l acc <> [].
  Proof.
    induction l as [|e l IH]; intros acc H; cbn [ultra_pass1].
    - intro E. apply H. apply (f_equal (@rev dentry)) in E. now rewrite rev_involutive in E.
    - destruct (below thr (de e - ds e)); destruct acc as [|lst acc']; try congruence; apply IH; discriminate.
  Qed.

  Lemma pass1_some_long l : existsb (long thr) l = true -> ultra_pass1 thr minT l [] <> [].
  Proof.
    induction l as [|e l IH]; cbn [existsb ultra_pass1]; [discriminate|].
    unfold long at 1. unfold dlen.
    destruct (below thr (de e - ds e)); cbn [negb orb]; [exact IH|].
    intros _. apply pass1_acc_nonempty. discriminate.
  Qed.

  (* with an interval that reaches the threshold the repaired function agrees with the one before the repair of F19 *)
  Lemma ru_legacy l : existsb (long thr) l = true ->
    remove_ultrashort thr minT l = remove_ultrashort_legacy thr minT l.
  Proof.
    intro H. unfold remove_ultrashort, remove_ultrashort_legacy.
    pose proof (pass1_some_long l H) as NE. destruct (ultra_pass1 thr minT l []); [congruence|reflexivity].
  Qed.

  Lemma pass1_nonempty_after l a acc :
    long thr a = true -> rev (ultra_pass1 thr minT (l ++ [a]) acc) <> [].
  Proof.
    intro La. rewrite pass1_app. unfold long, dlen in La.
    destruct (rev (ultra_pass1 thr minT l acc)) as [|c acc'];
      cbn [ultra_pass1]; destruct (below thr (de a - ds a)); try discriminate;
      rewrite rev_involutive; discriminate.
  Qed.

  Theorem ultra_partition l hi :
    partitionb minT l = Some hi -> existsb (long thr) l = true ->
    partitionb minT (remove_ultrashort thr minT l) = Some hi
    /\ forallb (long thr) (remove_ultrashort thr minT l) = true
    /\ map dl (remove_ultrashort thr minT l) = map dl (filter (long thr) l).
  Proof.
    intros HP HE. rewrite (ru_legacy l HE). unfold remove_ultrashort_legacy.
    destruct (pass1_inv hi l minT HP (Z.le_refl _) HE) as (A & B).
    rewrite (pass2_partition _ _ _ A). repeat split; auto. apply pass1_labels.
  Qed.

  (* e enters pass 1's accumulator as its head: a long left neighbour left it non-empty, so e is not stretched back
     to minT; a long right neighbour is appended, not absorbed, and pass 1 keeps what lies below the head *)
  Theorem ultra_verbatim l hi l1 e l2 :
    partitionb minT l = Some hi -> l = l1 ++ e :: l2 -> long thr e = true ->
    match last_opt l1 with Some a => long thr a = true | None => True end ->
    match l2 with b :: _ => long thr b = true | [] => True end ->
    In e (remove_ultrashort thr minT l).
  Proof.
    intros HP -> Le Ha Hb.
    assert (existsb (long thr) (l1 ++ e :: l2) = true) as HE.
    { apply existsb_exists. exists e. split; [apply in_or_app; right; left; reflexivity|exact Le]. }
    rewrite (ru_legacy _ HE). unfold remove_ultrashort_legacy.
    destruct (pass1_inv hi _ minT HP (Z.le_refl _) HE) as (A & _).
    rewrite (pass2_partition _ _ _ A).
    rewrite pass1_app.
    assert (is_DI e /\ (l1 = [] -> ds e = minT)) as (De & Hs).
    { rewrite partitionb_app in HP. destruct (partitionb minT l1) as [m|] eqn:P1; [|discriminate].
      apply partitionb_cons in HP as (E & L & _). split; [exact (lt_is_DI e L)|].
      intros ->. injection P1 as <-. exact E. }
    assert (exists rest, forall l', ultra_pass1 thr minT (e :: l') (rev (ultra_pass1 thr minT l1 [])) =
                                  ultra_pass1 thr minT l' (e :: rest)) as (rest & HR).
    { destruct e as [s e' lab|]; [|contradiction]. unfold long in Le.
      destruct (rev (ultra_pass1 thr minT l1 [])) as [|c acc'] eqn:EA.
      - exists []. intro l'. simpl. simpl in Le. unfold dlen in Le; simpl in Le.
        destruct (below thr (e' - s)); [discriminate|].
        assert (l1 = []) as L1.
        { destruct l1 as [|x l1] using rev_ind; [reflexivity|]. exfalso.
          rewrite last_opt_snoc in Ha. apply (pass1_nonempty_after l1 x [] Ha). exact EA. }
        specialize (Hs L1). simpl in Hs. subst s. rewrite Z.eqb_refl. reflexivity.
      - exists (c :: acc'). intro l'. simpl. unfold dlen in Le; simpl in Le.
        destruct (below thr (e' - s)); [discriminate|]. reflexivity. }
    rewrite HR. destruct l2 as [|b l2'].
    - simpl. apply in_or_app. right. left. reflexivity.
    - simpl. unfold long in Hb. fold (dlen b). destruct (below thr (dlen b)); [discriminate|].
      apply pass1_keeps_tail. simpl. left. reflexivity.
  Qed.

  (* every interval shorter than the threshold: nothing is written (the recorded
     finding F19 -- the clause 'partition of the span' fails for such a tier) *)
  Theorem ultra_all_short_legacy l : existsb (long thr) l = false -> remove_ultrashort_legacy thr minT l = [].
  Proof. intro H. unfold remove_ultrashort_legacy. rewrite pass1_all_short; auto. Qed.

  (* every interval shorter than the threshold (after the repair of F19): one blank interval from the
     tier's start to the last end, so the tier still covers its span *)
  Theorem ultra_all_short l hi :
    partitionb minT l = Some hi -> l <> [] -> existsb (long thr) l = false ->
    remove_ultrashort thr minT l = [DI minT hi []].
  Proof.
    intros HP NE H. unfold remove_ultrashort. rewrite pass1_all_short by exact H.
    destruct l as [|a l']; [congruence|]. destruct (last_opt_partition _ _ _ _ HP) as (e & -> & <-). reflexivity.
  Qed.

  Theorem ultra_partition_always l hi :
    partitionb minT l = Some hi -> l <> [] ->
    partitionb minT (remove_ultrashort thr minT l) = Some hi.
  Proof.
    intros HP NE. destruct (existsb (long thr) l) eqn:HE.
    - exact (proj1 (ultra_partition l hi HP HE)).
    - rewrite (ultra_all_short l hi HP NE HE). apply partitionb_cons. cbn. repeat split.
      destruct l as [|a l']; [congruence|]. apply partitionb_cons in HP as (E1 & E2 & HP).
      apply partition_le in HP. lia.
  Qed.
End Ultra.

Theorem prep_tier_blanks minT maxT thr t :
  d_isint t = true -> chain minT (d_ents t) maxT -> (d_ents t <> [] \/ minT < maxT) ->
  match thr with Some th => 0 < snd th /\ existsb (long th) (fill_spec minT (d_ents t) maxT) = true | None => True end ->
  prep_tier true minT maxT thr t =
    Ok (mkDT true (d_name t) (d_xmin t) (d_xmax t)
             (match thr with
              | Some th => remove_ultrashort th minT (fill_spec minT (d_ents t) maxT)
              | None => fill_spec minT (d_ents t) maxT end)).
Proof.
  intros HI C NE HT. unfold prep_tier. rewrite HI. simpl.
  rewrite (dsort_incr _ _ (chain_incr _ _ _ C)).
  rewrite (fill_blanks_spec _ _ _ C NE). simpl.
  pose proof (fill_spec_partition _ _ _ C) as P.
  destruct thr as [th|].
  - destruct HT as (Hd & HE). destruct (ultra_partition th Hd minT _ _ P HE) as (A & _ & _).
    now rewrite (dsort_partition _ _ _ A).
  - now rewrite (dsort_partition _ _ _ P).
Qed.

Lemma fill_spec_nonempty lo l hi : (l <> [] \/ lo < hi) -> chain lo l hi -> fill_spec lo l hi <> [].
Proof.
  intros NE C E. pose proof (fill_spec_partition _ _ _ C) as P. rewrite E in P. cbn [partitionb] in P. injection P as P.
  destruct NE as [NE|NE]; [|lia].
  destruct l as [|e l]; [congruence|]. cbn [fill_spec] in E. destruct (lo <? ds e); discriminate.
Qed.

Theorem prep_tier_blanks_always minT maxT th t :
  d_isint t = true -> chain minT (d_ents t) maxT -> (d_ents t <> [] \/ minT < maxT) -> 0 < snd th ->
  exists t', prep_tier true minT maxT (Some th) t = Ok t' /\ partitionb minT (d_ents t') = Some maxT.
Proof.
  intros HI C NE Hd. unfold prep_tier. rewrite HI. cbn [andb].
  rewrite (dsort_incr _ _ (chain_incr _ _ _ C)).
  rewrite (fill_blanks_spec _ _ _ C NE). cbn [bind].
  pose proof (fill_spec_partition _ _ _ C) as P.
  pose proof (ultra_partition_always th Hd minT _ _ P (fill_spec_nonempty _ _ _ NE C)) as A.
  eexists. split; [reflexivity|]. cbn [d_ents].
  now rewrite (dsort_partition _ _ _ A).
Qed.
