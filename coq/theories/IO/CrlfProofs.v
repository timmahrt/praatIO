(* IO/CrlfProofs.v -- CRLF normalisation (data.replace of CRLF by LF) is invisible on CR-free text. *)
From PraatIO Require Import IO.IoModel.

(* LF -> CRLF, as a CRLF file differs from an LF file *)
Fixpoint to_crlf (s : text) : text :=
  match s with
  | [] => []
  | c :: s' => if (c =? 10)%N then 13%N :: 10%N :: to_crlf s' else c :: to_crlf s'
  end.

Lemma crlf_cons_other c s : c <> 13%N -> crlf_to_lf (c :: s) = c :: crlf_to_lf s.
Proof.
  intro H. destruct c as [|p]; [reflexivity|].
  do 4 (try (destruct p as [p|p|]; try reflexivity)). congruence.
Qed.

Lemma crlf_nocr s : forallb (fun c => negb (c =? 13)%N) s = true -> crlf_to_lf s = s.
Proof.
  induction s as [|c s IH]; intro H; [reflexivity|].
  cbn [forallb] in H. apply andb_prop in H as [Hc Hs]. apply negb_true_iff, N.eqb_neq in Hc.
  rewrite (crlf_cons_other _ _ Hc), (IH Hs). reflexivity.
Qed.

Lemma crlf_roundtrip s : forallb (fun c => negb (c =? 13)%N) s = true -> crlf_to_lf (to_crlf s) = s.
Proof.
  induction s as [|c s IH]; intro H; [reflexivity|].
  cbn [forallb] in H. apply andb_prop in H as [Hc Hs]. apply negb_true_iff, N.eqb_neq in Hc.
  cbn [to_crlf]. destruct (c =? 10)%N eqn:E.
  - apply N.eqb_eq in E. subst c. change (crlf_to_lf (13%N :: 10%N :: to_crlf s)) with (crlf_to_lf (10%N :: to_crlf s)).
    rewrite crlf_cons_other by discriminate. now rewrite (IH Hs).
  - rewrite (crlf_cons_other _ _ Hc), (IH Hs). reflexivity.
Qed.

