(* IO/DupNames.v -- duplicate tier names on opening (praatio/textgrid.py openTextgrid). *)
From PraatIO Require Export IO.Str.

Definition name_mem (n : text) (l : list text) : bool := existsb (text_eqb n) l.

(* newName = name; i = 2; while newName in tierNames: newName = name_i; i += 1 *)
Fixpoint fresh (fuel : nat) (name : text) (i : nat) (used : list text) : option text :=
  match fuel with
  | O => None
  | S f => let cand := name ++ [95%N] ++ nat_to_text i in
           if name_mem cand used then fresh f name (S i) used else Some cand
  end.

Inductive dupmode := DupError | DupRename.

(* the loop over the tiers of the file: names already handed out, in file order *)
Fixpoint open_names (mode : dupmode) (names : list text) (used : list text) : res (list text) :=
  match names with
  | [] => Ok (rev used)
  | n :: rest =>
      if name_mem n used then
        match mode with
        | DupError => Err DuplicateTierName
        | DupRename =>
            match fresh (S (length used)) n 2 used with
            | Some n' => open_names mode rest (n' :: used)
            | None => Err PyError          (* fuel exhausted: not reachable, see the check *)
            end
        end
      else open_names mode rest (n :: used)
  end.

Lemma name_mem_In n l : name_mem n l = true <-> In n l.
Proof.
  unfold name_mem. rewrite existsb_exists. split.
  - intros (x & Hx & E). apply text_eqb_eq in E. now subst.
  - intro H. exists n. split; [exact H|apply text_eqb_refl].
Qed.

Lemma mem_before n used rest : name_mem n used = true -> ~ NoDup (rev used ++ n :: rest).
Proof.
  intros E H. apply NoDup_remove_2 in H. apply H, in_or_app. left. apply name_mem_In in E. now apply in_rev in E.
Qed.

Lemma NoDup_new n used : name_mem n used = false -> NoDup used -> NoDup (n :: used).
Proof. intros E ND. constructor; [|exact ND]. intro H. apply name_mem_In in H. congruence. Qed.

Lemma fresh_not_used fuel name i used n' : fresh fuel name i used = Some n' -> ~ In n' used.
Proof.
  revert i; induction fuel as [|f IH]; intro i; simpl; [discriminate|].
  destruct (name_mem (name ++ 95%N :: nat_to_text i) used) eqn:E.
  - apply IH.
  - intros [= <-]. intro H. apply name_mem_In in H. simpl in H. congruence.
Qed.

Lemma open_names_nodup mode names : forall used out,
  NoDup used -> open_names mode names used = Ok out -> NoDup out.
Proof.
  induction names as [|n rest IH]; intros used out ND; cbn [open_names].
  - intros [= <-]. now apply NoDup_rev.
  - destruct (name_mem n used) eqn:E.
    + destruct mode; [discriminate|].
      destruct (fresh (S (length used)) n 2 used) as [n'|] eqn:F; [|discriminate].
      apply IH. constructor; [eapply fresh_not_used, F|exact ND].
    + apply IH. now apply NoDup_new.
Qed.

Lemma open_names_length mode names : forall used out,
  open_names mode names used = Ok out -> length out = (length used + length names)%nat.
Proof.
  induction names as [|n rest IH]; intros used out; cbn [open_names].
  - intros [= <-]. rewrite rev_length. simpl. lia.
  - destruct (name_mem n used).
    + destruct mode; [discriminate|]. destruct (fresh _ n 2 used); [|discriminate].
      intro H. apply IH in H. simpl in H |- *. lia.
    + intro H. apply IH in H. simpl in H |- *. lia.
Qed.

Lemma open_names_nodup_id mode names : forall used,
  NoDup (rev used ++ names) -> open_names mode names used = Ok (rev used ++ names).
Proof.
  induction names as [|n rest IH]; intros used ND; cbn [open_names].
  - now rewrite app_nil_r.
  - destruct (name_mem n used) eqn:E; [destruct (mem_before _ _ _ E ND)|].
    rewrite IH; simpl; rewrite <- app_assoc; [reflexivity|exact ND].
Qed.

Lemma open_names_error_iff names : forall used, NoDup used ->
  (open_names DupError names used = Err DuplicateTierName <-> ~ NoDup (rev used ++ names)).
Proof.
  induction names as [|n rest IH]; intros used ND; cbn [open_names].
  - rewrite app_nil_r. split; [discriminate|]. intro H. exfalso. apply H. now apply NoDup_rev.
  - destruct (name_mem n used) eqn:E.
    + split; [intros _; exact (mem_before _ _ _ E)|reflexivity].
    + rewrite (IH _ (NoDup_new _ _ E ND)). simpl. now rewrite <- app_assoc.
Qed.
