(* IO/LongStyleProofs.v -- the long-form reader on a FAMILY of layouts (C03): any indentation made
   of blanks, any run of blanks (also none) after a value, `]:` or `]` after an index -- the Praat
   and the ELAN styles are two members.  A tier block or an entry block written in any such
   layout is read back as the data it encodes, for every label and name. *)
From Coq Require Import String.
From PraatIO Require Import IO.IoModel IO.CodecProofs IO.CrlfProofs IO.ShortFileProofs IO.LongFileProofs.
Open Scope Z_scope.

(* what may follow an index: `]` and `:` only *)
Definition closeb (c : text) : bool := forallb (fun x => (x =? 93)%N || (x =? 58)%N) c.

Lemma nocc_close w c : wordstart w = true -> closeb c = true -> nocc w c.
Proof.
  apply nocc_filler. intros x H. unfold filler. apply orb_prop in H as [H|H]; rewrite H; now rewrite ?orb_true_r.
Qed.

(* the start of a block, as the cut at `kw [` leaves it: the index, its closing, the end of the line *)
Definition bhead (j close rest : text) : text := j ++ close ++ NL1 ++ rest.

Lemma bhead_app j close rest r : bhead j close rest ++ r = bhead j close (rest ++ r).
Proof. unfold bhead. now rewrite <- !app_assoc. Qed.

Lemma nocc_bhead w j close rest : wordstart w = true -> idx j = true -> closeb close = true -> nocc w rest ->
  nocc w (bhead j close rest).
Proof.
  intros W HJ HC HR. unfold bhead. apply nostart_app; [now apply nocc_idx|]. apply nostart_app; [now apply nocc_close|].
  apply nostart_app; [now apply nocc_ws|exact HR].
Qed.

Lemma skips_bhead {B w} {F : text -> B} (S : skips w F) j close rest :
  wordstart w = true -> idx j = true -> closeb close = true -> F (bhead j close rest) = F rest.
Proof.
  intros W HJ HC. rewrite <- (bhead_app j close [] rest : _ = bhead j close rest).
  apply S, nocc_bhead; try assumption. apply nostart_nil.
Qed.

(* the side conditions of the line lemmas: a hypothesis, or a closed check on the keywords *)
Ltac sc := first [assumption | reflexivity].

(* an interval block in any layout of the family: trn follows numbers, trs follows strings *)
Definition ichunk_s (close ind trn trs : text) (j N1 N2 lab : text) : text :=
  j ++ close ++ NL1 ++ ind ++ T "xmin" ++ EQ ++ N1 ++ trn ++ NL1 ++ ind ++ T "xmax" ++ EQ ++ N2 ++ trn ++ NL1
    ++ ind ++ T "text" ++ EQ ++ Q1 ++ esc lab ++ Q1 ++ trs ++ NL1.

Definition pchunk_s (close ind trn trs : text) (j N1 lab : text) : text :=
  j ++ close ++ NL1 ++ ind ++ T "number" ++ EQ ++ N1 ++ trn ++ NL1
    ++ ind ++ T "mark" ++ EQ ++ Q1 ++ esc lab ++ Q1 ++ trs ++ NL1.

Lemma ichunk_s_lines close ind trn trs j N1 N2 lab trail :
  ichunk_s close ind trn trs j N1 N2 lab ++ trail
  = bhead j close (numline ind (T "xmin") N1 trn (numline ind (T "xmax") N2 trn (strline ind (T "text") (esc lab) trs trail))).
Proof. change trail with ([] ++ trail) at 2. now rewrite <- strline_app, <- !numline_app, <- bhead_app. Qed.

Lemma pchunk_s_lines close ind trn trs j N1 lab trail :
  pchunk_s close ind trn trs j N1 lab ++ trail
  = bhead j close (numline ind (T "number") N1 trn (strline ind (T "mark") (esc lab) trs trail)).
Proof. change trail with ([] ++ trail) at 2. now rewrite <- strline_app, <- numline_app, <- bhead_app. Qed.

Theorem parse_ichunk_s close ind trn trs j N1 N2 lab trail :
  closeb close = true -> allsp ind = true -> allsp trn = true -> allsp trs = true ->
  idx j = true -> numshape N1 = true -> numshape N2 = true -> allsp trail = true ->
  parse_long_interval (ichunk_s close ind trn trs j N1 N2 lab ++ trail) = Ok (RI N1 N2 (strip lab)).
Proof.
  intros HC HI HR HS HJ H1 H2 HT. unfold parse_long_interval. rewrite ichunk_s_lines.
  rewrite (skips_bhead (search_num_skips _ _)), search_num_numline by sc. cbn [req bind].
  rewrite (skips_bhead (search_num_skips _ _)), (skips_numline (search_num_skips _ _)), search_num_numline by sc.
  cbn [req bind].
  rewrite (skips_bhead (search_quoted_skips _ _)), !(skips_numline (search_quoted_skips _ _)), search_quoted_strline by sc.
  cbn [req bind]. now rewrite strip_esc, unesc_esc.
Qed.

Theorem parse_pchunk_s close ind trn trs j N1 lab trail :
  closeb close = true -> allsp ind = true -> allsp trn = true -> allsp trs = true ->
  idx j = true -> numshape N1 = true -> allsp trail = true ->
  parse_long_point true (pchunk_s close ind trn trs j N1 lab ++ trail) = Ok (RP N1 (strip lab)).
Proof.
  intros HC HI HR HS HJ H1 HT. unfold parse_long_point. rewrite pchunk_s_lines.
  rewrite (skips_bhead (search_num_skips _ _)), search_num_numline by sc. cbn [req bind].
  rewrite (skips_bhead (search_quoted_skips _ _)), (skips_numline (search_quoted_skips _ _)), search_quoted_strline by sc.
  cbn [req bind]. now rewrite strip_esc, unesc_esc.
Qed.

(* the head of a tier block in any layout of the family *)
Definition thead_s (close ind trn trs : text) (j : text) (isint : bool) (name N1 N2 n : text) : text :=
  j ++ close ++ NL1
    ++ ind ++ T "class" ++ EQ ++ Q1 ++ class_name isint ++ Q1 ++ trs ++ NL1
    ++ ind ++ T "name" ++ EQ ++ Q1 ++ esc name ++ Q1 ++ trs ++ NL1
    ++ ind ++ T "xmin" ++ EQ ++ N1 ++ trn ++ NL1
    ++ ind ++ T "xmax" ++ EQ ++ N2 ++ trn ++ NL1
    ++ ind ++ (if isint then T "intervals: size = " else T "points: size = ") ++ n ++ trs ++ NL1.

Definition sizeline (ind : text) (isint : bool) (n tr rest : text) : text :=
  ind ++ (if isint then T "intervals: size = " else T "points: size = ") ++ n ++ tr ++ NL1 ++ rest.

Lemma sizeline_app ind isint n tr rest r : sizeline ind isint n tr rest ++ r = sizeline ind isint n tr (rest ++ r).
Proof. unfold sizeline. now rewrite <- !app_assoc. Qed.

Lemma thead_s_lines close ind trn trs j isint name N1 N2 n trail :
  thead_s close ind trn trs j isint name N1 N2 n ++ trail
  = bhead j close (strline ind (T "class") (class_name isint) trs (strline ind (T "name") (esc name) trs
      (numline ind (T "xmin") N1 trn (numline ind (T "xmax") N2 trn (sizeline ind isint n trs trail))))).
Proof.
  change trail with ([] ++ trail) at 2. now rewrite <- sizeline_app, <- !numline_app, <- !strline_app, <- bhead_app.
Qed.

Theorem thead_fields_s close ind trn trs j isint name N1 N2 n trail :
  closeb close = true -> allsp ind = true -> allsp trn = true -> allsp trs = true ->
  idx j = true -> nonl name = true -> numshape N1 = true -> numshape N2 = true ->
  let h := thead_s close ind trn trs j isint name N1 N2 n ++ trail in
  search_quoted (T "name") false h = Some (esc name)
  /\ search_num (T "xmin") true h = Some N1
  /\ search_num (T "xmax") false h = Some N2.
Proof.
  intros HC HI HR HS HJ HN H1 H2 h. subst h. rewrite thead_s_lines.
  pose proof (esc_nonl name HN) as HE.
  assert (nonl (class_name isint) = true) as NC by (destruct isint; reflexivity).
  assert (nocc (T "name") (Q1 ++ class_name isint ++ Q1)) as CN by (destruct isint; apply noccb_sound; reflexivity).
  split; [|split].
  - (* the class line holds no `name` *)
    now rewrite (skips_bhead (search_quoted_skips _ _)), (skips_strline (search_quoted_skips _ _)),
      search_quoted_strline_line by sc.
  - (* on the class and name lines no number follows `xmin =`, whatever the name holds *)
    now rewrite (skips_bhead (search_num_skips _ _)), !search_num_skip_strline, search_num_numline by sc.
  - now rewrite (skips_bhead (search_num_skips _ _)), !search_num_skip_strline,
      (skips_numline (search_num_skips _ _)), search_num_numline by sc.
Qed.

Record lstyle := mkLS {
  ls_close_t : text;      (* after a tier index:  ]:  *)
  ls_close_e : text;      (* after an entry index:  ]:  or  ]  *)
  ls_ind_t : text;        (* indentation of a tier's fields *)
  ls_ind_e : text;        (* indentation of an entry's fields *)
  ls_trn : text;          (* what follows a number on its line *)
  ls_trs : text           (* what follows a string (and a size) on its line *)
}.

Definition style_ok (s : lstyle) : bool :=
  closeb (ls_close_t s) && closeb (ls_close_e s) && allsp (ls_ind_t s) && allsp (ls_ind_e s)
  && allsp (ls_trn s) && allsp (ls_trs s).

Definition echunk_s (s : lstyle) (tab : numtab) (j : nat) (e : dentry) : text :=
  match e with
  | DI a b lab => ichunk_s (ls_close_e s) (ls_ind_e s) (ls_trn s) (ls_trs s) (nat_to_text j)
                           (num_str (lookup tab a)) (num_str (lookup tab b)) lab
  | DP t lab => pchunk_s (ls_close_e s) (ls_ind_e s) (ls_trn s) (ls_trs s) (nat_to_text j) (num_str (lookup tab t)) lab
  end.

Lemma style_ok_spec s : style_ok s = true ->
  closeb (ls_close_t s) = true /\ closeb (ls_close_e s) = true /\ allsp (ls_ind_t s) = true /\ allsp (ls_ind_e s) = true
  /\ allsp (ls_trn s) = true /\ allsp (ls_trs s) = true.
Proof.
  unfold style_ok. intro H. apply andb_prop in H as [H S6]. apply andb_prop in H as [H S5]. apply andb_prop in H as [H S4].
  apply andb_prop in H as [H S3]. apply andb_prop in H as [S1 S2]. auto 10.
Qed.

Lemma parse_echunk_s s tab (isint : bool) k e trail : style_ok s = true -> times_num tab e = true ->
  (if isint then is_DIb e else negb (is_DIb e)) = true -> allsp trail = true ->
  (if isint then parse_long_interval else parse_long_point true) (echunk_s s tab k e ++ trail) = Ok (rd_entry tab e).
Proof.
  intros SO TN KD SP. destruct (style_ok_spec s SO) as (_ & S2 & _ & S4 & S5 & S6). pose proof (nat_to_text_idx k) as IK.
  destruct isint, e as [a b lab|t lab]; try discriminate KD; cbn [echunk_s rd_entry times_num] in *.
  - apply andb_prop in TN as [T1 T2]. now apply parse_ichunk_s.
  - now apply parse_pchunk_s.
Qed.

Lemma entries_chunks_s s tab (isint : bool) : style_ok s = true -> forall ents k ecs,
  chunks_match (echunk_s s tab) k ents ecs = true -> forallb (times_num tab) ents = true ->
  (if isint then forallb is_DIb ents else forallb (fun e => negb (is_DIb e)) ents) = true ->
  mapM_r (if isint then parse_long_interval else parse_long_point true) ecs = Ok (map (rd_entry tab) ents).
Proof.
  intro SO. induction ents as [|e ents IH]; intros k [|c ecs] CM TN KD; try discriminate; [reflexivity|].
  cbn [chunks_match] in CM. apply andb_prop in CM as [CL CM]. cbn [forallb] in TN. apply andb_prop in TN as [Te TN].
  apply chunk_like_spec in CL as (trail & -> & SP).
  assert ((if isint then is_DIb e else negb (is_DIb e)) = true
          /\ (if isint then forallb is_DIb ents else forallb (fun e => negb (is_DIb e)) ents) = true) as [Ke KD'].
  { destruct isint; cbn [forallb] in KD; now apply andb_prop in KD. }
  cbn [mapM_r map]. now rewrite (parse_echunk_s s tab isint k e trail SO Te Ke SP), (IH (S k) ecs CM TN KD').
Qed.

Definition ltier_ok_s (s : lstyle) (tab : numtab) (k : nat) (t : dtier) (tc : text) : bool :=
  Bool.eqb (has_sub CLASS_INT tc) (d_isint t)
  && match re_split (if d_isint t then T "intervals" else T "points") tc with
     | th :: ecs =>
         chunk_like (thead_s (ls_close_t s) (ls_ind_t s) (ls_trn s) (ls_trs s) (nat_to_text k) (d_isint t) (d_name t)
                             (num_str (lookup tab (d_xmin t))) (num_str (lookup tab (d_xmax t)))
                             (nat_to_text (length (d_ents t)))) th
         && chunks_match (echunk_s s tab) 1 (d_ents t) ecs
     | [] => false
     end
  && nonl (d_name t) && numshape (num_str (lookup tab (d_xmin t))) && numshape (num_str (lookup tab (d_xmax t)))
  && forallb (times_num tab) (d_ents t)
  && (if d_isint t then forallb is_DIb (d_ents t) else forallb (fun e => negb (is_DIb e)) (d_ents t)).

Theorem parse_long_tier_block_s s tab k t tc : style_ok s = true -> ltier_ok_s s tab k t tc = true ->
  parse_long_tier true tc = Ok (rd_tier_long tab t).
Proof.
  intro SO. destruct (style_ok_spec s SO) as (S1 & _ & S3 & _ & S5 & S6). unfold ltier_ok_s. intro H.
  rewrite !andb_true_iff in H. destruct H as ((((((HC & H) & NN) & N1) & N2) & TN) & KD).
  apply Bool.eqb_prop in HC. unfold parse_long_tier. rewrite HC.
  destruct (re_split (if d_isint t then T "intervals" else T "points") tc) as [|th ecs]; [discriminate|].
  apply andb_prop in H as [TH CM]. apply chunk_like_spec in TH as (trail & -> & SP).
  destruct (thead_fields_s _ _ _ _ (nat_to_text k) (d_isint t) (d_name t) _ _ (nat_to_text (length (d_ents t))) trail
              S1 S3 S5 S6 (nat_to_text_idx k) NN N1 N2) as (F1 & F2 & F3).
  rewrite F1, F2, F3. cbn [req bind].
  rewrite (entries_chunks_s s tab (d_isint t) SO _ _ _ CM TN KD). cbn [bind]. unfold rd_tier_long. now rewrite unesc_esc.
Qed.

Fixpoint tiers_match_s (s : lstyle) (tab : numtab) (k : nat) (l : list dtier) (tcs : list text) : bool :=
  match l, tcs with
  | [], [] => true
  | t :: l', c :: cs => ltier_ok_s s tab k t c && tiers_match_s s tab (S k) l' cs
  | _, _ => false
  end.

Lemma tiers_blocks_s s tab : style_ok s = true -> forall tiers k tcs, tiers_match_s s tab k tiers tcs = true ->
  mapM_r (parse_long_tier true) tcs = Ok (map (rd_tier_long tab) tiers).
Proof.
  intro SO. induction tiers as [|t tiers IH]; intros k tcs H.
  - destruct tcs; [reflexivity|discriminate].
  - destruct tcs as [|c tcs]; [discriminate|]. cbn [tiers_match_s] in H. apply andb_prop in H as [Ht H].
    cbn [mapM_r map]. rewrite (parse_long_tier_block_s s tab k t c SO Ht). cbn [bind]. now rewrite (IH _ _ H).
Qed.

Lemma strip_padded_s t tr : plain_tok t = true -> allsp tr = true -> strip (32%N :: t ++ tr) = t.
Proof.
  intros P HT. unfold plain_tok in P. destruct t as [|c t]; [discriminate|]. pose proof (strip_plain _ P) as SP.
  assert (isspace c = false) as Hc.
  { cbn [forallb] in P. apply andb_prop in P as [P _]. apply andb_prop in P as [P _]. now apply negb_true_iff in P. }
  unfold strip in *. cbn [lstrip app] in *. change (isspace 32%N) with true. cbn iota. rewrite Hc in *.
  unfold rstrip in *. change (c :: t ++ tr) with ((c :: t) ++ tr). rewrite rev_app_distr, lstrip_ws; [exact SP|].
  apply forallb_forall. intros x Hx. apply in_rev in Hx. unfold allsp in HT. rewrite forallb_forall in HT.
  specialize (HT x Hx). apply N.eqb_eq in HT. now subst.
Qed.

Lemma header_value_line_s kw t tr : forallb (fun c => negb (c =? 61)%N) kw = true -> numshape t = true -> allsp tr = true ->
  header_value (kw ++ 61%N :: 32%N :: t ++ tr) = Ok t.
Proof.
  intros K H HT. unfold header_value. rewrite (split_on_line 61%N kw _ K), split_on_none.
  - f_equal. apply strip_padded_s; [apply numshape_plain, H|exact HT].
  - cbn [forallb]. change (negb (32 =? 61)%N) with true. cbn [andb]. rewrite forallb_app, andb_true_iff. split.
    + generalize (numshape_chars t H). apply forallb_impl. intros x. unfold numchar, isdigit_dot. lia.
    + revert HT. apply forallb_impl. intros x E. apply N.eqb_eq in E. now subst.
Qed.

(* side condition for a file in layout s: cutting it at `item [` / `item[` finds a header whose 4th and
   5th lines are the span, and the tier blocks *)
Definition lfile_ok_s (s : lstyle) (tab : numtab) (g : dtg) (data : text) : bool :=
  style_ok s
  && match re_split (T "item") data with
     | h :: _ :: tcs =>
         option_eqb text_eqb (nth_error (split_nl h) 3)
                    (Some (T "xmin " ++ 61%N :: 32%N :: num_str (lookup tab (dg_xmin g)) ++ ls_trn s))
         && option_eqb text_eqb (nth_error (split_nl h) 4)
                    (Some (T "xmax " ++ 61%N :: 32%N :: num_str (lookup tab (dg_xmax g)) ++ ls_trn s))
         && tiers_match_s s tab 1 (dg_tiers g) tcs
     | _ => false
     end
  && numshape (num_str (lookup tab (dg_xmin g))) && numshape (num_str (lookup tab (dg_xmax g))).

(* any file in any layout of the family, LF or CRLF line ends *)
Theorem parse_long_styled s tab g data :
  lfile_ok_s s tab g (crlf_to_lf data) = true ->
  parse_long true data = Ok (rd_tg_long tab g).
Proof.
  intros OK. unfold lfile_ok_s in OK. apply andb_prop in OK as [OK B]. apply andb_prop in OK as [OK A].
  apply andb_prop in OK as [SO OK]. unfold parse_long. pose proof SO as SO'. unfold style_ok in SO'.
  apply andb_prop in SO' as [SO' _]. apply andb_prop in SO' as [_ S5].
  destruct (re_split (T "item") (crlf_to_lf data)) as [|h [|x tcs]]; try discriminate.
  apply andb_prop in OK as [HH TM]. apply andb_prop in HH as [L3 L4].
  destruct (nth_error (split_nl h) 3) as [l3|]; [|discriminate]. destruct (nth_error (split_nl h) 4) as [l4|]; [|discriminate].
  cbn [option_eqb] in L3, L4. apply text_eqb_eq in L3, L4. subst l3 l4.
  rewrite (header_value_line_s (T "xmin ") _ _ eq_refl A S5). cbn [bind].
  rewrite (header_value_line_s (T "xmax ") _ _ eq_refl B S5). cbn [bind].
  rewrite (tiers_blocks_s s tab SO _ _ _ TM). reflexivity.
Qed.

(* the layout print_long writes is one member of the family *)
Definition praat : lstyle := mkLS (T "]:") (T "]:") TAB2 TAB3 (T " ") (T " ").

(* ichunk, pchunk and thead are ichunk_s, pchunk_s and thead_s at praat's fields up to conversion:
   SPNL ++ x and T " " ++ NL1 ++ x both compute to 32 :: 10 :: x *)
Lemma ichunk_lines j N1 N2 lab trail :
  ichunk j N1 N2 lab ++ trail
  = bhead j (T "]:") (numline TAB3 (T "xmin") N1 (T " ") (numline TAB3 (T "xmax") N2 (T " ")
      (strline TAB3 (T "text") (esc lab) (T " ") trail))).
Proof. exact (ichunk_s_lines (T "]:") TAB3 (T " ") (T " ") j N1 N2 lab trail). Qed.

Lemma pchunk_lines j N1 lab trail :
  pchunk j N1 lab ++ trail
  = bhead j (T "]:") (numline TAB3 (T "number") N1 (T " ") (strline TAB3 (T "mark") (esc lab) (T " ") trail)).
Proof. exact (pchunk_s_lines (T "]:") TAB3 (T " ") (T " ") j N1 lab trail). Qed.

Lemma thead_lines j isint name N1 N2 n trail :
  thead j isint name N1 N2 n ++ trail
  = bhead j (T "]:") (strline TAB2 (T "class") (class_name isint) (T " ") (strline TAB2 (T "name") (esc name) (T " ")
      (numline TAB2 (T "xmin") N1 (T " ") (numline TAB2 (T "xmax") N2 (T " ") (sizeline TAB2 isint n (T " ") trail))))).
Proof. exact (thead_s_lines (T "]:") TAB2 (T " ") (T " ") j isint name N1 N2 n trail). Qed.

Lemma tiers_match_praat tab : forall l k tcs, tiers_match tab k l tcs = tiers_match_s praat tab k l tcs.
Proof.
  induction l as [|t l IH]; intros k [|c cs]; try reflexivity.
  cbn [tiers_match tiers_match_s]. rewrite IH. reflexivity.
Qed.

Lemma lfile_ok_praat tab g : lfile_ok tab g = true -> lfile_ok_s praat tab g (print_long tab g) = true.
Proof.
  unfold lfile_ok, lfile_ok_s. intro OK. apply andb_prop in OK as [OK B]. apply andb_prop in OK as [OK A].
  rewrite A, B, !andb_true_r.
  destruct (re_split (T "item") (print_long tab g)) as [|h [|x tcs]]; try discriminate.
  apply andb_prop in OK as [HH TM]. apply text_eqb_eq in HH. subst h.
  destruct (lhead_lines tab g A B) as [L3 L4]. rewrite L3, L4, <- tiers_match_praat, TM.
  cbn [option_eqb]. now rewrite !text_eqb_refl.
Qed.

Theorem parse_long_printed tab g :
  lfile_ok tab g = true ->
  forallb (fun c => negb (c =? 13)%N) (print_long tab g) = true ->
  parse_long true (print_long tab g) = Ok (rd_tg_long tab g).
Proof.
  intros OK CR. apply (parse_long_styled praat). rewrite (crlf_nocr _ CR). now apply lfile_ok_praat.
Qed.
