(* IO/IoModel.v -- models of praatio/utilities/textgrid_io.py: preparation for
   saving, the short and long text writers, the short and long text readers. *)
From Coq Require Import String.
From PraatIO Require Export IO.Str Tier.Interval.
Open Scope Z_scope.

(* data as handed to the writers: dictionaries of tiers *)

Inductive dentry := DI (s e : Z) (lab : text) | DP (t : Z) (lab : text).
Record dtier := mkDT { d_isint : bool; d_name : text; d_xmin : Z; d_xmax : Z; d_ents : list dentry }.
Record dtg := mkDTG { dg_xmin : Z; dg_xmax : Z; dg_tiers : list dtier }.

Definition dentry_eqb (a b : dentry) : bool :=
  match a, b with
  | DI s e l, DI s' e' l' => (s =? s') && (e =? e') && text_eqb l l'
  | DP t l, DP t' l' => (t =? t') && text_eqb l l'
  | _, _ => false
  end.
Definition dtier_eqb (a b : dtier) : bool :=
  Bool.eqb (d_isint a) (d_isint b) && text_eqb (d_name a) (d_name b)
  && (d_xmin a =? d_xmin b) && (d_xmax a =? d_xmax b) && list_eqb dentry_eqb (d_ents a) (d_ents b).
Definition dtg_eqb (a b : dtg) : bool :=
  (dg_xmin a =? dg_xmin b) && (dg_xmax a =? dg_xmax b) && list_eqb dtier_eqb (dg_tiers a) (dg_tiers b).

(* Python tuple order on entries (times first, then label) *)
Definition dcmp (a b : dentry) : comparison :=
  match a, b with
  | DI s e l, DI s' e' l' => icmp (mkI s e l) (mkI s' e' l')
  | DP t l, DP t' l' => pcmp (mkP t l) (mkP t' l')
  | DI _ _ _, DP _ _ => Gt
  | DP _ _, DI _ _ _ => Lt
  end.
Definition dleb (a b : dentry) : bool := match dcmp a b with Gt => false | _ => true end.
Definition dsort := isort dleb.

(* _fillInBlanks, _removeUltrashortIntervals, _prepTgForSaving *)

Definition ds (e : dentry) : Z := match e with DI s _ _ => s | DP t _ => t end.
Definition de (e : dentry) : Z := match e with DI _ e _ => e | DP t _ => t end.
Definition dl (e : dentry) : text := match e with DI _ _ l => l | DP _ l => l end.

Fixpoint fill_gaps (prevEnd : Z) (l : list dentry) : list dentry :=
  match l with
  | [] => []
  | e :: l' => (if prevEnd <? ds e then [DI prevEnd (ds e) []] else []) ++ e :: fill_gaps (de e) l'
  end.

Definition fill_blanks (minT maxT : Z) (ents : list dentry) : res (list dentry) :=
  let ents := match ents with [] => [DI minT maxT []] | _ => ents end in
  match ents with
  | [] => Err PyError
  | e0 :: rest =>
      let l1 := e0 :: fill_gaps (de e0) rest in
      if ds e0 <? minT then Err ParsingError else
      let l2 := if minT <? ds e0 then DI minT (ds e0) [] :: l1 else l1 in
      match last_opt l2 with
      | None => Err PyError
      | Some el =>
          if maxT <? de el then Err ParsingError else
          let l3 := if de el <? maxT then l2 ++ [DI (de el) maxT []] else l2 in
          Ok (dsort l3)
      end
  end.

(* threshold = num/den ticks, den > 0:  x < threshold  <->  x * den < num *)
Definition below (thr : Z * Z) (x : Z) : bool := x * snd thr <? fst thr.

(* first pass: newEntries kept in reverse (head = last appended) *)
Fixpoint ultra_pass1 (thr : Z * Z) (minT : Z) (l : list dentry) (acc_rev : list dentry) : list dentry :=
  match l with
  | [] => rev acc_rev
  | e :: l' =>
      if below thr (de e - ds e) then
        match acc_rev with
        | lst :: acc' => ultra_pass1 thr minT l' (DI (ds lst) (de e) (dl lst) :: acc')
        | [] => ultra_pass1 thr minT l' []
        end
      else
        match acc_rev with
        | [] => ultra_pass1 thr minT l' [if negb (ds e =? minT) then DI minT (de e) (dl e) else DI (ds e) (de e) (dl e)]
        | _ => ultra_pass1 thr minT l' (DI (ds e) (de e) (dl e) :: acc_rev)
        end
  end.

Fixpoint ultra_pass2 (thr : Z * Z) (l : list dentry) : list dentry :=
  match l with
  | a :: l' =>
      match l' with
      | b :: _ =>
          let diff := Z.abs (de a - ds b) in
          (if (0 <? diff) && below thr diff then DI (ds a) (ds b) (dl a) else a) :: ultra_pass2 thr l'
      | [] => [a]
      end
  | [] => []
  end.

(* the function before the repair of F19: a tier all of whose intervals are shorter than the
   threshold came out with no interval at all *)
Definition remove_ultrashort_legacy (thr : Z * Z) (minT : Z) (l : list dentry) : list dentry :=
  ultra_pass2 thr (ultra_pass1 thr minT l []).

(* newEntries is empty exactly when no interval reaches the threshold; then, as for a tier without
   entries, one blank interval from the tier's start to the last end is written *)
Definition remove_ultrashort (thr : Z * Z) (minT : Z) (l : list dentry) : list dentry :=
  match ultra_pass1 thr minT l [], last_opt l with
  | [], Some e => ultra_pass2 thr [DI minT (de e) []]
  | p1, _ => ultra_pass2 thr p1
  end.

Definition prep_tier (blanks : bool) (minT maxT : Z) (thr : option (Z * Z)) (t : dtier) : res dtier :=
  let ents := dsort (d_ents t) in
  if blanks && d_isint t then
    do l <- fill_blanks minT maxT ents;
    let l' := match thr with Some th => remove_ultrashort th minT l | None => l end in
    Ok (mkDT (d_isint t) (d_name t) (d_xmin t) (d_xmax t) (dsort l'))
  else Ok (mkDT (d_isint t) (d_name t) (d_xmin t) (d_xmax t) ents).

(* an entry outside a requested minTimestamp / maxTimestamp *)
Definition outside_override (mn mx : option Z) (g : dtg) : bool :=
  existsb (fun t => existsb (fun e =>
      (match mn with Some a => ds e <? a | None => false end)
      || (match mx with Some b => b <? de e | None => false end)) (d_ents t)) (dg_tiers g).

Definition prep_tg (blanks : bool) (mn mx : option Z) (thr : option (Z * Z)) (g : dtg) : res dtg :=
  if outside_override mn mx g then Err ParsingError else
  let minT := match mn with Some a => a | None => dg_xmin g end in
  let maxT := match mx with Some b => b | None => dg_xmax g end in
  do ts <- (fix go (l : list dtier) : res (list dtier) :=
              match l with
              | [] => Ok []
              | t :: l' => do t' <- prep_tier blanks minT maxT thr t; do r <- go l'; Ok (t' :: r)
              end) (dg_tiers g);
  Ok (mkDTG minT maxT ts).

(* numbers in files: opaque tokens supplied with their lexical forms *)

Record num := mkNum { near_int : bool; int_str : text; repr_str : text }.
Definition num_str (n : num) : text := if near_int n then int_str n else repr_str n.   (* my_math.numToStr *)

Definition numtab := list (Z * num).
Fixpoint lookup (tab : numtab) (x : Z) : num :=
  match tab with
  | [] => mkNum true [63%N] [63%N]
  | (k, n) :: tab' => if k =? x then n else lookup tab' x
  end.

Definition Q1 : text := [34%N].
Definition NL1 : text := [10%N].
Definition quoted (s : text) : text := Q1 ++ esc s ++ Q1.

Definition short_entry (tab : numtab) (e : dentry) : text :=
  match e with
  | DI s e l => num_str (lookup tab s) ++ NL1 ++ num_str (lookup tab e) ++ NL1 ++ quoted l ++ NL1
  | DP t l => num_str (lookup tab t) ++ NL1 ++ quoted l ++ NL1
  end.

Definition class_name (isint : bool) : text := if isint then T "IntervalTier" else T "TextTier".

Definition short_tier (tab : numtab) (t : dtier) : text :=
  Q1 ++ class_name (d_isint t) ++ Q1 ++ NL1
  ++ quoted (d_name t) ++ NL1
  ++ num_str (lookup tab (d_xmin t)) ++ NL1 ++ num_str (lookup tab (d_xmax t)) ++ NL1
  ++ nat_to_text (length (d_ents t)) ++ NL1
  ++ flat_map (short_entry tab) (d_ents t).

Definition HEADER : text := T "File type = ""ooTextFile""" ++ NL1 ++ T "Object class = ""TextGrid""" ++ NL1 ++ NL1.

Definition print_short (tab : numtab) (g : dtg) : text :=
  HEADER
  ++ num_str (lookup tab (dg_xmin g)) ++ NL1 ++ num_str (lookup tab (dg_xmax g)) ++ NL1
  ++ T "<exists>" ++ NL1 ++ nat_to_text (length (dg_tiers g)) ++ NL1
  ++ flat_map (short_tier tab) (dg_tiers g).

Definition TAB : text := T "    ".
Definition SPNL : text := T " " ++ NL1.

Fixpoint long_entries (tab : numtab) (isint : bool) (k : nat) (l : list dentry) : text :=
  match l with
  | [] => []
  | e :: l' =>
      (match e with
       | DI s e' lab =>
           TAB ++ TAB ++ T "intervals [" ++ nat_to_text k ++ T "]:" ++ NL1
           ++ TAB ++ TAB ++ TAB ++ T "xmin = " ++ num_str (lookup tab s) ++ SPNL
           ++ TAB ++ TAB ++ TAB ++ T "xmax = " ++ num_str (lookup tab e') ++ SPNL
           ++ TAB ++ TAB ++ TAB ++ T "text = " ++ quoted lab ++ SPNL
       | DP t lab =>
           TAB ++ TAB ++ T "points [" ++ nat_to_text k ++ T "]:" ++ NL1
           ++ TAB ++ TAB ++ TAB ++ T "number = " ++ num_str (lookup tab t) ++ SPNL
           ++ TAB ++ TAB ++ TAB ++ T "mark = " ++ quoted lab ++ SPNL
       end) ++ long_entries tab isint (S k) l'
  end.

Fixpoint long_tiers (tab : numtab) (k : nat) (l : list dtier) : text :=
  match l with
  | [] => []
  | t :: l' =>
      TAB ++ T "item [" ++ nat_to_text k ++ T "]:" ++ NL1
      ++ TAB ++ TAB ++ T "class = " ++ Q1 ++ class_name (d_isint t) ++ Q1 ++ SPNL
      ++ TAB ++ TAB ++ T "name = " ++ quoted (d_name t) ++ SPNL
      ++ TAB ++ TAB ++ T "xmin = " ++ num_str (lookup tab (d_xmin t)) ++ SPNL
      ++ TAB ++ TAB ++ T "xmax = " ++ num_str (lookup tab (d_xmax t)) ++ SPNL
      ++ TAB ++ TAB ++ (if d_isint t then T "intervals: size = " else T "points: size = ")
      ++ nat_to_text (length (d_ents t)) ++ SPNL
      ++ long_entries tab (d_isint t) 1 (d_ents t)
      ++ long_tiers tab (S k) l'
  end.

Definition print_long (tab : numtab) (g : dtg) : text :=
  HEADER
  ++ T "xmin = " ++ num_str (lookup tab (dg_xmin g)) ++ SPNL
  ++ T "xmax = " ++ num_str (lookup tab (dg_xmax g)) ++ SPNL
  ++ T "tiers? <exists> " ++ NL1
  ++ T "size = " ++ nat_to_text (length (dg_tiers g)) ++ SPNL
  ++ T "item []: " ++ NL1
  ++ long_tiers tab 1 (dg_tiers g).

(* getTextgridAsStr for the two Praat text formats *)
Definition save_text (long : bool) (blanks : bool) (mn mx : option Z) (thr : option (Z * Z))
           (tab : numtab) (g : dtg) : res text :=
  do g' <- prep_tg blanks mn mx thr g;
  Ok (if long then print_long tab g' else print_short tab g').

(* what the readers return: number tokens stay text *)

Inductive rentry := RI (s e lab : text) | RP (t lab : text).
Record rtier := mkRT { r_isint : bool; r_name : text; r_xmin : text; r_xmax : text; r_ents : list rentry }.
Record rtg := mkRTG { rg_xmin : text; rg_xmax : text; rg_tiers : list rtier }.

Definition rentry_eqb (a b : rentry) : bool :=
  match a, b with
  | RI s e l, RI s' e' l' => text_eqb s s' && text_eqb e e' && text_eqb l l'
  | RP t l, RP t' l' => text_eqb t t' && text_eqb l l'
  | _, _ => false
  end.
Definition rtier_eqb (a b : rtier) : bool :=
  Bool.eqb (r_isint a) (r_isint b) && text_eqb (r_name a) (r_name b)
  && text_eqb (r_xmin a) (r_xmin b) && text_eqb (r_xmax a) (r_xmax b)
  && list_eqb rentry_eqb (r_ents a) (r_ents b).
Definition rtg_eqb (a b : rtg) : bool :=
  text_eqb (rg_xmin a) (rg_xmin b) && text_eqb (rg_xmax a) (rg_xmax b)
  && list_eqb rtier_eqb (rg_tiers a) (rg_tiers b).

(* short-form reader: _fetchRow, _fetchTextRow, _parseShortTextgrid *)

Definition isq (c : N) : bool := (c =? 34)%N.

(* _fetchRow on the suffix starting at index: (word, rest) *)
Definition fetch_row (s : text) : res (text * text) :=
  match take_line s with
  | None => Err PyError                                   (* ValueError: no newline *)
  | Some (line, rest) =>
      let w := strip line in
      match w, last_opt w with
      | c0 :: _, Some cl =>
          let w' := if isq c0 && isq cl then drop_last (tl w) else w in
          Ok (strip w', rest)
      | _, _ => Err PyError                               (* IndexError: empty word *)
      end
  end.

(* run of quotes at the head of s: its length and the rest; None when the run
   reaches the end of the text (IndexError in the source) *)
Fixpoint quote_run (s : text) : option (nat * text) :=
  match s with
  | [] => None
  | c :: s' => if isq c then match quote_run s' with Some (n, r) => Some (S n, r) | None => None end
               else Some (O, s)
  end.

(* scan for the terminating odd run of quotes; returns the text consumed up to
   and including that run, and the rest.  fuel = length of the text. *)
Fixpoint scan_text (fuel : nat) (s : text) (acc_rev : text) : res (text * text) :=
  match fuel with
  | O => Err PyError
  | S f =>
      match s with
      | [] => Err PyError                                  (* ValueError: no quote *)
      | c :: s' =>
          if isq c then
            match quote_run s with
            | None => Err PyError                          (* IndexError at end of data *)
            | Some (n, r) =>
                let acc' := repeat 34%N n ++ acc_rev in
                if Nat.odd n then Ok (rev acc', r) else scan_text f r acc'
            end
          else scan_text f s' (c :: acc_rev)
      end
  end.

(* _fetchTextRow on the suffix starting at index *)
Definition fetch_text_row (s : text) : res (text * text) :=
  match s with
  | [] => Err PyError
  | c0 :: s1 =>
      do wr <- scan_text (S (length s1)) s1 [c0];
      let '(w, r) := wr in
      let word := unesc (strip (drop_last (tl w))) in
      match take_line r with
      | None => Err PyError
      | Some (_, rest) => Ok (word, rest)
      end
  end.

(* entry loops: stop at the first fetch that fails *)
Fixpoint short_intervals (fuel : nat) (s : text) : list rentry :=
  match fuel with
  | O => []
  | S f =>
      match fetch_row s with
      | Ok (st, r1) =>
          match fetch_row r1 with
          | Ok (en, r2) =>
              match fetch_text_row r2 with
              | Ok (lab, r3) => RI st en (strip lab) :: short_intervals f r3
              | Err _ => [] end
          | Err _ => [] end
      | Err _ => []
      end
  end.

Fixpoint short_points (fuel : nat) (s : text) : list rentry :=
  match fuel with
  | O => []
  | S f =>
      match fetch_row s with
      | Ok (tm, r1) =>
          match fetch_text_row r1 with
          | Ok (lab, r2) => RP tm (strip lab) :: short_points f r2
          | Err _ => [] end
      | Err _ => []
      end
  end.

Definition QINT : text := Q1 ++ T "IntervalTier" ++ Q1.
Definition QPT : text := Q1 ++ T "TextTier" ++ Q1.

(* cut the data at every occurrence of one of the two class keywords: header
   and a list of (isInterval, block text) *)
Fixpoint short_blocks (fuel : nat) (s : text) (cur_rev : text) (cur_kind : option bool)
         (acc : list (option bool * text)) : list (option bool * text) :=
  match fuel with
  | O => rev ((cur_kind, rev cur_rev) :: acc)
  | S f =>
      match s with
      | [] => rev ((cur_kind, rev cur_rev) :: acc)
      | c :: s' =>
          if is_prefix QINT s then short_blocks f s' [c] (Some true) ((cur_kind, rev cur_rev) :: acc)
          else if is_prefix QPT s then short_blocks f s' [c] (Some false) ((cur_kind, rev cur_rev) :: acc)
          else short_blocks f s' (c :: cur_rev) cur_kind acc
      end
  end.

Definition parse_short_tier (isint : bool) (block : text) : res rtier :=
  do a <- fetch_row block;
  do b <- fetch_text_row (snd a);
  do c <- fetch_row (snd b);
  do d <- fetch_row (snd c);
  do e <- fetch_row (snd d);
  let body := snd e in
  Ok (mkRT isint (fst b) (fst c) (fst d)
           (if isint then short_intervals (S (length body)) body else short_points (S (length body)) body)).

Fixpoint mapM_tiers (l : list (option bool * text)) : res (list rtier) :=
  match l with
  | [] => Ok []
  | (Some k, b) :: l' => do t <- parse_short_tier k b; do r <- mapM_tiers l'; Ok (t :: r)
  | (None, _) :: l' => mapM_tiers l'
  end.

Definition parse_short (data : text) : res rtg :=
  let data := crlf_to_lf data in
  match short_blocks (S (length data)) data [] None [] with
  | (None, header) :: blocks =>
      match blocks with
      | [] => Err PyError      (* tupleList[0] : IndexError *)
      | _ =>
          let hl := split_nl header in
          match nth_error hl 3, nth_error hl 4 with
          | Some a, Some b =>
              do ts <- mapM_tiers blocks;
              Ok (mkRTG (strip a) (strip b) ts)
          | _, _ => Err PyError
          end
      end
  | _ => Err PyError
  end.

(* long-form reader: per-pattern scanners for the regexes of _parseNormalTextgrid *)

(* does  \s*$  (MULTILINE) match here: only white space up to a line end *)
Fixpoint ws_to_eol (s : text) : bool :=
  match s with
  | [] => true
  | c :: s' => if (c =? 10)%N then true else if isspace c then ws_to_eol s' else false
  end.

(* one optional space, then the literal character lit *)
Definition opt_sp_then (lit : N) (s : text) : option text :=
  match s with
  | 32%N :: c :: r => if (c =? lit)%N then Some r else None
  | c :: r => if (c =? lit)%N then Some r else None
  | [] => None
  end.

(* one optional space (consumed if present) *)
Definition opt_sp (s : text) : text := match s with 32%N :: r => r | _ => s end.

(* keyword ?= ?  at the head of s *)
Definition match_kw_eq (kw s : text) : option text :=
  if is_prefix kw s then
    match opt_sp_then 61%N (skipn (length kw) s) with
    | Some r => Some (opt_sp r)
    | None => None end
  else None.

(* the quoted group after the opening quote: the LAST closing quote (greedy) that
   is followed by white space up to a line end; the group stops at a newline
   unless DOTALL *)
Fixpoint quoted_group (dotall : bool) (s : text) (acc_rev : text) (best : option text) : option text :=
  match s with
  | [] => best
  | c :: s' =>
      if (c =? 10)%N && negb dotall then best
      else
        let best' := if isq c && ws_to_eol s' then Some (rev acc_rev) else best in
        quoted_group dotall s' (c :: acc_rev) best'
  end.

Definition isdigit_dot (c : N) : bool := ((48 <=? c) && (c <=? 57) || (c =? 46))%N.

Fixpoint take_while (p : N -> bool) (s : text) : text * text :=
  match s with
  | c :: s' => if p c then let '(a, b) := take_while p s' in (c :: a, b) else ([], s)
  | [] => ([], [])
  end.

Lemma tw_len p s : (length (snd (take_while p s)) <= length s)%nat.
Proof.
  induction s as [|c s IH]; [simpl; lia|]. cbn [take_while]. destruct (p c); [|simpl; lia].
  destruct (take_while p s). cbn [snd] in *. simpl. lia.
Qed.

Lemma tw_all_true p w : forallb p w = true -> take_while p w = (w, []).
Proof.
  induction w as [|c w IH]; intro H; [reflexivity|]. cbn [forallb] in H. apply andb_prop in H as [Hc Hw].
  cbn [take_while]. now rewrite Hc, (IH Hw).
Qed.

Lemma tw_stop p s : match snd (take_while p s) with c :: _ => p c = false | [] => True end.
Proof.
  induction s as [|c s IH]; [exact I|]. cbn [take_while]. destruct (p c) eqn:E; [|exact E].
  destruct (take_while p s). exact IH.
Qed.

Lemma tw_app p t r : match r with c :: _ => p c = false | [] => True end ->
  take_while p (t ++ r) = (fst (take_while p t), snd (take_while p t) ++ r).
Proof.
  intro H. induction t as [|c t IH]; cbn [app take_while].
  - destruct r as [|c r]; [reflexivity|]. cbn [take_while]. rewrite H. reflexivity.
  - destruct (p c); [|reflexivity]. rewrite IH. destruct (take_while p t). reflexivity.
Qed.

Lemma tw_split p t : t = fst (take_while p t) ++ snd (take_while p t).
Proof.
  induction t as [|c t IH]; [reflexivity|]. cbn [take_while]. destruct (p c); [|reflexivity].
  destruct (take_while p t) as [a b]. cbn [fst snd] in *. cbn [app]. now rewrite <- IH.
Qed.

Lemma tw_all p t : forallb p (fst (take_while p t)) = true.
Proof.
  induction t as [|c t IH]; [reflexivity|]. cbn [take_while]. destruct (p c) eqn:E; [|reflexivity].
  destruct (take_while p t) as [a b]. cbn [fst snd forallb] in *. now rewrite E, IH.
Qed.

(* ASCII digits; Unicode digits are outside the modelled domain *)
Definition isdigit (c : N) : bool := ((48 <=? c) && (c <=? 57))%N.

(* the optional exponent  (?:[eE][-+]?\d+)?  : the text it consumes (empty when absent) *)
Definition exp_part (s : text) : text * text :=
  match s with
  | c :: r =>
      if ((c =? 101) || (c =? 69))%N then
        let '(sg, r1) := match r with
                         | d :: r' => if ((d =? 45) || (d =? 43))%N then ([d], r') else ([], r)
                         | [] => ([], r) end in
        let '(dgs, r2) := take_while isdigit r1 in
        match dgs with
        | [] => ([], s)
        | _ => (c :: sg ++ dgs, r2)
        end
      else ([], s)
  | [] => ([], s)
  end.

(* optional minus, a maximal run of digits and dots, white space to a line end *)
Definition num_group (neg_ok : bool) (s : text) : option text :=
  let s := if neg_ok then match s with 45%N :: r => r | _ => s end else s in
  let '(run, rest) := take_while isdigit_dot s in
  match run with
  | [] => None
  | _ => let '(ex, rest') := exp_part rest in
         if ws_to_eol rest' then Some (run ++ ex) else None
  end.

(* re.search: leftmost position where the field matches *)
Fixpoint search_quoted (kw : text) (dotall : bool) (s : text) : option text :=
  match match_kw_eq kw s with
  | Some (34%N :: r) =>
      match quoted_group dotall r [] None with
      | Some g => Some g
      | None => match s with _ :: s' => search_quoted kw dotall s' | [] => None end
      end
  | _ => match s with _ :: s' => search_quoted kw dotall s' | [] => None end
  end.

Fixpoint search_num (kw : text) (neg_ok : bool) (s : text) : option text :=
  match match_kw_eq kw s with
  | Some r =>
      match num_group neg_ok r with
      | Some g => Some g
      | None => match s with _ :: s' => search_num kw neg_ok s' | [] => None end
      end
  | None => match s with _ :: s' => search_num kw neg_ok s' | [] => None end
  end.

(* re.split(kw ?\[ , s) *)
Fixpoint re_split_kw (fuel : nat) (kw : text) (s : text) (cur_rev : text) (acc : list text) : list text :=
  match fuel with
  | O => rev (rev cur_rev :: acc)
  | S f =>
      match s with
      | [] => rev (rev cur_rev :: acc)
      | c :: s' =>
          if is_prefix kw s then
            match opt_sp_then 91%N (skipn (length kw) s) with
            | Some r => re_split_kw f kw r [] (rev cur_rev :: acc)
            | None => re_split_kw f kw s' (c :: cur_rev) acc
            end
          else re_split_kw f kw s' (c :: cur_rev) acc
      end
  end.
Definition re_split (kw s : text) : list text := re_split_kw (S (length s)) kw s [] [].

(* headerList[k].split(=)[1].strip() *)
Definition header_value (line : text) : res text :=
  match split_on 61%N line with
  | _ :: v :: _ => Ok (strip v)
  | _ => Err PyError
  end.

Definition req {A} (o : option A) : res A := match o with Some a => Ok a | None => Err ParsingError end.

Definition parse_long_interval (el : text) : res rentry :=
  do s <- req (search_num (T "xmin") true el);
  do e <- req (search_num (T "xmax") false el);
  do l <- req (search_quoted (T "text") true el);
  Ok (RI s e (unesc (strip l))).

(* a point's mark is stripped and un-doubled like an interval's text (undouble = true);
   undouble = false is the reader before the repair of F2, kept for the refutation witness *)
Definition parse_long_point (undouble : bool) (el : text) : res rentry :=
  do t <- req (search_num (T "number") true el);
  do l <- req (search_quoted (T "mark") true el);
  Ok (RP t (if undouble then unesc (strip l) else strip l)).

Fixpoint mapM_r {A B} (f : A -> res B) (l : list A) : res (list B) :=
  match l with
  | [] => Ok []
  | x :: l' => do y <- f x; do ys <- mapM_r f l'; Ok (y :: ys)
  end.

Definition CLASS_INT : text := T "class = ""IntervalTier""".

Definition parse_long_tier (undouble : bool) (tierTxt : text) : res rtier :=
  let isint := has_sub CLASS_INT tierTxt in
  match re_split (if isint then T "intervals" else T "points") tierTxt with
  | [] => Err PyError
  | header :: els =>
      do nm <- req (search_quoted (T "name") false header);
      do mn <- req (search_num (T "xmin") true header);
      do mx <- req (search_num (T "xmax") false header);
      do ents <- mapM_r (if isint then parse_long_interval else parse_long_point undouble) els;
      Ok (mkRT isint (unesc nm) mn mx ents)
  end.

Definition parse_long (undouble : bool) (data : text) : res rtg :=
  let data := crlf_to_lf data in
  match re_split (T "item") data with
  | header :: _ :: tierTxts =>      (* first split: header; the piece after item [] is dropped *)
      let hl := split_nl header in
      match nth_error hl 3, nth_error hl 4 with
      | Some a, Some b =>
          do mn <- header_value a; do mx <- header_value b;
          do ts <- mapM_r (parse_long_tier undouble) tierTxts;
          Ok (mkRTG mn mx ts)
      | _, _ => Err PyError
      end
  | _ => Err PyError
  end.

(* parseTextgridStr for non-JSON data *)
Definition remove_blanks (g : rtg) : rtg :=
  mkRTG (rg_xmin g) (rg_xmax g)
        (map (fun t => mkRT (r_isint t) (r_name t) (r_xmin t) (r_xmax t)
                            (filter (fun e => match e with RI _ _ l | RP _ l => negb (text_eqb l []) end) (r_ents t)))
             (rg_tiers g)).

Definition parse_text (undouble : bool) (includeEmpty : bool) (data : text) : res rtg :=
  do g <- (if has_sub (T "ooTextFile short") data || negb (has_sub (T "item [") data)
           then parse_short data else parse_long undouble data);
  Ok (if includeEmpty then g else remove_blanks g).

(* the short-form reader with the number conversions it performs: float() on the two header
   rows, strToIntOrFloat on each tier's span rows.  okf / okn say which tokens those
   conversions accept (supplied by the harness from Python's own float / int); a rejected
   token is a ValueError.  With both predicates constantly true this is parse_short. *)

Definition parse_short_tier_chk (okn : text -> bool) (isint : bool) (block : text) : res rtier :=
  do a <- fetch_row block;
  do b <- fetch_text_row (snd a);
  do c <- fetch_row (snd b);
  do d <- fetch_row (snd c);
  do e <- fetch_row (snd d);
  if okn (fst c) && okn (fst d) then
    let body := snd e in
    Ok (mkRT isint (fst b) (fst c) (fst d)
             (if isint then short_intervals (S (length body)) body else short_points (S (length body)) body))
  else Err PyError.

Fixpoint mapM_tiers_chk (okn : text -> bool) (l : list (option bool * text)) : res (list rtier) :=
  match l with
  | [] => Ok []
  | (Some k, b) :: l' => do t <- parse_short_tier_chk okn k b; do r <- mapM_tiers_chk okn l'; Ok (t :: r)
  | (None, _) :: l' => mapM_tiers_chk okn l'
  end.

Definition parse_short_chk (okf okn : text -> bool) (data : text) : res rtg :=
  let data := crlf_to_lf data in
  match short_blocks (S (length data)) data [] None [] with
  | (None, header) :: blocks =>
      match blocks with
      | [] => Err PyError
      | _ =>
          let hl := split_nl header in
          match nth_error hl 3, nth_error hl 4 with
          | Some a, Some b =>
              if okf (strip a) && okf (strip b) then
                do ts <- mapM_tiers_chk okn blocks;
                Ok (mkRTG (strip a) (strip b) ts)
              else Err PyError
          | _, _ => Err PyError
          end
      end
  | _ => Err PyError
  end.

Lemma parse_short_tier_chk_true isint block :
  parse_short_tier_chk (fun _ => true) isint block = parse_short_tier isint block.
Proof.
  unfold parse_short_tier_chk, parse_short_tier.
  destruct (fetch_row block) as [a|]; [|reflexivity]. cbn [bind].
  destruct (fetch_text_row (snd a)) as [b|]; [|reflexivity]. cbn [bind].
  destruct (fetch_row (snd b)) as [c|]; [|reflexivity]. cbn [bind].
  destruct (fetch_row (snd c)) as [d|]; [|reflexivity]. cbn [bind].
  destruct (fetch_row (snd d)) as [e|]; reflexivity.
Qed.

Lemma mapM_tiers_chk_true l : mapM_tiers_chk (fun _ => true) l = mapM_tiers l.
Proof.
  induction l as [|[[k|] b] l IH]; cbn [mapM_tiers_chk mapM_tiers]; [reflexivity| |exact IH].
  now rewrite parse_short_tier_chk_true, IH.
Qed.

Lemma parse_short_chk_true data : parse_short_chk (fun _ => true) (fun _ => true) data = parse_short data.
Proof.
  unfold parse_short_chk, parse_short.
  destruct (short_blocks _ _ _ _ _) as [|[[k|] header] blocks]; try reflexivity.
  destruct blocks as [|b blocks]; [reflexivity|].
  destruct (nth_error (split_nl header) 3); [|reflexivity]. destruct (nth_error (split_nl header) 4); [|reflexivity].
  cbn [andb]. now rewrite mapM_tiers_chk_true.
Qed.

(* the long-form reader with its number conversions (float() on the two header values,
   strToIntOrFloat on each tier's span), in the source's order of evaluation *)
Definition parse_long_tier_chk (okn : text -> bool) (undouble : bool) (tierTxt : text) : res rtier :=
  let isint := has_sub CLASS_INT tierTxt in
  match re_split (if isint then T "intervals" else T "points") tierTxt with
  | [] => Err PyError
  | header :: els =>
      do nm <- req (search_quoted (T "name") false header);
      do mn <- req (search_num (T "xmin") true header);
      if negb (okn mn) then Err PyError else
      do mx <- req (search_num (T "xmax") false header);
      if negb (okn mx) then Err PyError else
      do ents <- mapM_r (if isint then parse_long_interval else parse_long_point undouble) els;
      Ok (mkRT isint (unesc nm) mn mx ents)
  end.

Definition parse_long_chk (okf okn : text -> bool) (undouble : bool) (data : text) : res rtg :=
  let data := crlf_to_lf data in
  match re_split (T "item") data with
  | header :: _ :: tierTxts =>
      let hl := split_nl header in
      match nth_error hl 3 with
      | Some a =>
          do mn <- header_value a;
          if negb (okf mn) then Err PyError else
          match nth_error hl 4 with
          | Some b =>
              do mx <- header_value b;
              if negb (okf mx) then Err PyError else
              do ts <- mapM_r (parse_long_tier_chk okn undouble) tierTxts;
              Ok (mkRTG mn mx ts)
          | None => Err PyError
          end
      | None => Err PyError
      end
  | _ => Err PyError
  end.
