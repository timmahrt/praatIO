(* IO/LongChunkProofs.v -- the keyword chunking of the long reader is proved, it is not a hypothesis:
   re.split(kw ?\[) on the text print_long writes finds the header, the tier blocks and, inside a
   tier block, its head and its entries, whenever no name or label holds one of the words item,
   intervals, points, IntervalTier. *)
From Coq Require Import String.
From PraatIO Require Import IO.IoModel IO.CodecProofs IO.CrlfProofs IO.ShortFileProofs IO.ShortChunkProofs IO.LongFileProofs IO.LongStyleProofs.
Open Scope Z_scope.

(* does  kw ?\[  match at the head of s, and what follows the match *)
Definition matches_at (kw s : text) : option text :=
  if is_prefix kw s then opt_sp_then 91%N (skipn (length kw) s) else None.

Lemma re_split_kw_cons f kw c s' cur acc :
  re_split_kw (S f) kw (c :: s') cur acc =
  match matches_at kw (c :: s') with
  | Some r => re_split_kw f kw r [] (rev cur :: acc)
  | None => re_split_kw f kw s' (c :: cur) acc
  end.
Proof. unfold matches_at. cbn [re_split_kw]. destruct (is_prefix kw (c :: s')); reflexivity. Qed.

Lemma opt_sp_then_len lit q r : opt_sp_then lit q = Some r -> (length r < length q)%nat.
Proof.
  intro H. apply opt_sp_then_suffix in H as (p & -> & NE & _). rewrite app_length. destruct p; [congruence|simpl; lia].
Qed.

Lemma matches_at_len kw c s' r : kw <> [] -> matches_at kw (c :: s') = Some r -> (length r <= length s')%nat.
Proof.
  intros NE. unfold matches_at. destruct (is_prefix kw (c :: s')) eqn:P; [|discriminate].
  intro H. apply opt_sp_then_len in H. rewrite skipn_length in H. destruct kw; [congruence|]. simpl in H |- *. lia.
Qed.

(* a match shortens the text by several characters and the fuel by one, so the equation of a step (RS_some) needs
   that spare fuel does not matter; the short scan drops one character per step and needs no such lemma *)
Lemma re_split_fuel kw : kw <> [] -> forall f1 f2 s cur acc, (length s < f1)%nat -> (length s < f2)%nat ->
  re_split_kw f1 kw s cur acc = re_split_kw f2 kw s cur acc.
Proof.
  intro NE. induction f1 as [|f1 IH]; intros f2 s cur acc L1 L2; [lia|]. destruct f2 as [|f2]; [lia|].
  destruct s as [|c s']; [reflexivity|]. simpl in L1, L2. rewrite !re_split_kw_cons.
  destruct (matches_at kw (c :: s')) as [r|] eqn:M; [pose proof (matches_at_len kw c s' r NE M)|]; apply IH; lia.
Qed.

Definition RS (kw s cur : text) (acc : list text) : list text := re_split_kw (S (length s)) kw s cur acc.

Lemma RS_nil kw cur acc : RS kw [] cur acc = rev (rev cur :: acc).
Proof. reflexivity. Qed.

Lemma RS_some kw c s' r cur acc : kw <> [] -> matches_at kw (c :: s') = Some r -> RS kw (c :: s') cur acc = RS kw r [] (rev cur :: acc).
Proof.
  intros NE M. unfold RS. cbn [length]. rewrite re_split_kw_cons, M.
  pose proof (matches_at_len kw c s' r NE M). apply (re_split_fuel kw NE); simpl; lia.
Qed.

(* a piece in which no match starts, whatever follows it: nostart (matches_at kw) None *)
Definition nomatch (kw p : text) : Prop :=
  forall a b r, p = a ++ b -> b <> [] -> matches_at kw (b ++ r) = None.

Lemma nomatch_app kw p q : nomatch kw p -> nomatch kw q -> nomatch kw (p ++ q).
Proof. exact (nostart_app (matches_at kw) None p q). Qed.

Lemma nocc_nomatch kw p : nocc kw p -> nomatch kw p.
Proof. intros H a b r E NB. unfold matches_at. now rewrite (H a b r E NB). Qed.

Lemma RS_clean kw : forall p r cur acc, nomatch kw p -> RS kw (p ++ r) cur acc = RS kw r (rev p ++ cur) acc.
Proof.
  induction p as [|c p IH]; intros r cur acc NM; [reflexivity|].
  unfold RS. cbn [app length]. rewrite re_split_kw_cons, (nostart_head (matches_at kw) None c p r NM).
  fold (RS kw (p ++ r) (c :: cur) acc). rewrite IH by exact (nostart_tail (matches_at kw) None c p NM).
  cbn [rev]. now rewrite <- app_assoc.
Qed.

(* closed pieces: a reflective check.  At every position either the keyword mismatches within the piece, or it
   is there and what follows inside the piece already rules out  ?\[ *)
Fixpoint mism (k b : text) : bool :=
  match k, b with
  | x :: k', y :: b' => negb (x =? y)%N || mism k' b'
  | _, _ => false
  end.

Lemma mism_sound k : forall b r, mism k b = true -> is_prefix k (b ++ r) = false.
Proof.
  induction k as [|x k IH]; intros b r H; [discriminate|]. destruct b as [|y b]; [discriminate|].
  cbn [mism] in H. cbn [app is_prefix]. destruct (x =? y)%N; cbn [negb orb andb] in *; [now apply IH|reflexivity].
Qed.

Definition after_none (q : text) : bool :=
  match q with
  | c :: q' => if (c =? 91)%N then false
               else if (c =? 32)%N then match q' with c2 :: _ => negb (c2 =? 91)%N | [] => false end
               else true
  | [] => false
  end.

Lemma after_none_sound q r : after_none q = true -> opt_sp_then 91%N (q ++ r) = None.
Proof.
  unfold after_none. rewrite opt_sp_then_cases. destruct q as [|c q']; [discriminate|]. cbn [app].
  destruct (c =? 91)%N eqn:E1; [discriminate|]. destruct (c =? 32)%N.
  - destruct q' as [|c2 q2]; [discriminate|]. intro H. apply negb_true_iff in H. cbn [app]. now rewrite H.
  - reflexivity.
Qed.

Definition decide_none (kw b : text) : bool :=
  mism kw b || (is_prefix kw b && after_none (skipn (length kw) b)).

Lemma decide_none_sound kw b r : decide_none kw b = true -> matches_at kw (b ++ r) = None.
Proof.
  unfold decide_none, matches_at. intro H. apply orb_prop in H as [H|H].
  - now rewrite (mism_sound kw b r H).
  - apply andb_prop in H as [P A]. destruct (is_prefix kw (b ++ r)); [|reflexivity].
    apply is_prefix_spec in P as (s & ->). rewrite <- app_assoc, !skipn_app_exact in *. now apply after_none_sound.
Qed.

Fixpoint nomatchb (kw p : text) : bool :=
  match p with
  | [] => true
  | c :: p' => decide_none kw p && nomatchb kw p'
  end.

Lemma nomatchb_sound kw p : nomatchb kw p = true -> nomatch kw p.
Proof.
  induction p as [|c p IH]; intro H; [exact (nostart_nil _ _)|]. cbn [nomatchb] in H. apply andb_prop in H as [D H].
  apply (nostart_cons (matches_at kw) None); [|exact (IH H)]. intro r. exact (decide_none_sound kw (c :: p) r D).
Qed.

Definition kwok (kw : text) : Prop := kw = T "item" \/ kw = T "intervals" \/ kw = T "points".

Definition lfree (l : text) : bool :=
  negb (has_sub (T "item") l) && negb (has_sub (T "intervals") l) && negb (has_sub (T "points") l)
  && negb (has_sub (T "IntervalTier") l).

Definition lword (w : text) : Prop := kwok w \/ w = CORE_I.

Lemma lword_facts w : lword w ->
  w <> [] /\ wordstart w = true /\ forallb (fun c => negb (isq c)) w = true
  /\ noccb w (T "xmin" ++ EQ) = true /\ noccb w (T "xmax" ++ EQ) = true /\ noccb w (T "text" ++ EQ) = true
  /\ noccb w (T "number" ++ EQ) = true /\ noccb w (T "mark" ++ EQ) = true
  /\ noccb w (T "class" ++ EQ) = true /\ noccb w (T "name" ++ EQ) = true.
Proof. intros [[-> | [-> | ->]] | ->]; (split; [discriminate|]); repeat split. Qed.

Lemma kwok_wordstart kw : kwok kw -> wordstart kw = true.
Proof. intros [-> | [-> | ->]]; reflexivity. Qed.

Lemma lfree_word w l : lword w -> lfree l = true -> contains w l = false.
Proof.
  unfold lfree, has_sub. intros K H. apply andb_prop in H as [H H4]. apply andb_prop in H as [H H3].
  apply andb_prop in H as [H1 H2]. apply negb_true_iff in H1, H2, H3, H4. destruct K as [[-> | [-> | ->]] | ->]; assumption.
Qed.

Lemma matches_at_hit kw rest : matches_at kw (kw ++ 32%N :: 91%N :: rest) = Some rest.
Proof. unfold matches_at. rewrite is_prefix_app, skipn_app_exact, opt_sp_then_cases. reflexivity. Qed.

Lemma RS_hit kw rest cur acc : kw <> [] -> RS kw (kw ++ 32%N :: 91%N :: rest) cur acc = RS kw rest [] (rev cur :: acc).
Proof.
  intro NE. pose proof (matches_at_hit kw rest) as H. destruct kw as [|c kw']; [congruence|]. exact (RS_some _ c _ rest cur acc NE H).
Qed.

Lemma nomatch_closed kw p : kwok kw ->
  nomatchb (T "item") p && nomatchb (T "intervals") p && nomatchb (T "points") p = true -> nomatch kw p.
Proof.
  intros K H. apply andb_prop in H as [H H3]. apply andb_prop in H as [H1 H2].
  destruct K as [-> | [-> | ->]]; now apply nomatchb_sound.
Qed.

(* a number field line:  <indent> kw' = N <sp> \n *)
Lemma nomatch_numline kw ind (fld N : text) : kwok kw -> allsp ind = true -> numshape N = true ->
  nomatchb (T "item") fld && nomatchb (T "intervals") fld && nomatchb (T "points") fld = true ->
  nomatch kw (ind ++ fld ++ N ++ SPNL).
Proof.
  intros K HI HN HF. pose proof (kwok_wordstart kw K) as W.
  apply nomatch_app; [now apply nocc_nomatch, nocc_sp|]. apply nomatch_app; [now apply (nomatch_closed _ _ K)|].
  apply nomatch_app; [now apply nocc_nomatch, nocc_num|]. now apply nocc_nomatch, nocc_ws.
Qed.

(* the head of a tier block: above its size line it holds none of the four words, given that its class does not;
   the size line holds the entry keyword once, followed by a colon *)
Lemma nostart_thead {B} (f : text -> B) v w j isint name N1 N2 n :
  (forall p, nocc w p -> nostart f v p) -> lword w -> nocc w (Q1 ++ class_name isint ++ Q1) ->
  nostart f v (sizeline TAB2 isint n (T " ") []) ->
  idx j = true -> numshape N1 = true -> numshape N2 = true -> lfree name = true ->
  nostart f v (thead j isint name N1 N2 n).
Proof.
  intros L LW CN SZ HJ H1 H2 LF. destruct (lword_facts w LW) as (NE & W & Q & F1 & F2 & _ & _ & _ & F6 & F7).
  pose proof (lfree_word w name LW LF) as NC.
  rewrite <- (app_nil_r (thead j isint name N1 N2 n)), thead_lines.
  rewrite <- (app_nil_l (sizeline TAB2 isint n (T " ") [])), <- !numline_app, <- !strline_app, <- bhead_app.
  apply nostart_app; [apply L|exact SZ].
  apply nocc_bhead; [sc..|]. apply nocc_strline; [sc..|].
  apply nocc_strline; [sc|sc|sc|now apply nocc_quoted|sc|].
  apply nocc_numline; [sc..|]. apply nocc_numline; [sc..|apply nostart_nil].
Qed.

Lemma nomatch_thead kw j (isint : bool) name N1 N2 n : kwok kw -> idx j = true -> idx n = true ->
  numshape N1 = true -> numshape N2 = true -> lfree name = true ->
  nomatch kw (thead j isint name N1 N2 n).
Proof.
  intros K HJ HN H1 H2 LF. pose proof (kwok_wordstart kw K) as W.
  apply (nostart_thead (matches_at kw) None kw); try assumption; [exact (nocc_nomatch kw)|now left| |].
  - destruct isint; destruct K as [-> | [-> | ->]]; apply noccb_sound; reflexivity.
  - unfold sizeline. apply nomatch_app; [now apply nocc_nomatch, nocc_sp|].
    apply nomatch_app; [destruct isint; apply (nomatch_closed _ _ K); reflexivity|].
    apply nomatch_app; [now apply nocc_nomatch, nocc_idx|]. now apply nocc_nomatch, nocc_ws.
Qed.

Lemma nocc_thead w j (isint : bool) name N1 N2 n : lword w ->
  noccb w (Q1 ++ class_name isint ++ Q1) = true ->
  noccb w (if isint then T "intervals: size = " else T "points: size = ") = true ->
  idx j = true -> idx n = true -> numshape N1 = true -> numshape N2 = true -> lfree name = true ->
  nocc w (thead j isint name N1 N2 n).
Proof.
  intros LW CN SZ HJ HN H1 H2 LF.
  destruct (lword_facts w LW) as (_ & W & _).
  apply (nostart_thead (is_prefix w) false w); try assumption; [auto|now apply noccb_sound|].
  unfold sizeline. apply nostart_app; [now apply nocc_sp|]. apply nostart_app; [now apply noccb_sound|].
  apply nostart_app; [now apply nocc_idx|]. now apply nocc_ws.
Qed.

Lemma quoted_app l r : quoted l ++ r = Q1 ++ esc l ++ Q1 ++ r.
Proof. unfold quoted. now rewrite <- !app_assoc. Qed.

Definition ekw (isint : bool) : text := if isint then T "intervals" else T "points".

Lemma ekw_ok isint : kwok (ekw isint).
Proof. destruct isint; [right; left|right; right]; reflexivity. Qed.

Lemma long_entries_cons tab (isint : bool) k e l' :
  long_entries tab isint k (e :: l')
  = (TAB2 ++ ekw (is_DIb e) ++ [32%N; 91%N] ++ echunk tab k e) ++ long_entries tab isint (S k) l'.
Proof. cbn [long_entries]. f_equal. destruct e; cbn [echunk is_DIb ekw]; rewrite quoted_app; reflexivity. Qed.

(* what re.split returns on  c sep kw [b1 sep kw [b2 ... bn trail : each piece keeps the separator that preceded the
   next keyword, the last one the trail *)
Fixpoint glue (sep : text) (c : text) (bs : list text) (trail : text) : list text :=
  match bs with
  | [] => [c ++ trail]
  | b :: bs' => (c ++ sep) :: glue sep b bs' trail
  end.

Definition entry_ok (tab : numtab) (isint : bool) (e : dentry) : bool :=
  times_num tab e && (if isint then is_DIb e else negb (is_DIb e))
  && match e with DI _ _ l | DP _ l => lfree l end.

Lemma entry_ok_kind tab isint e : entry_ok tab isint e = true -> is_DIb e = isint.
Proof.
  unfold entry_ok. intro H. apply andb_prop in H as [H _]. apply andb_prop in H as [_ H].
  destruct isint, (is_DIb e); try reflexivity; discriminate.
Qed.

Lemma nocc_echunk w tab isint k e : lword w -> entry_ok tab isint e = true -> nocc w (echunk tab k e).
Proof.
  intros LW H. unfold entry_ok in H. apply andb_prop in H as [H LF]. apply andb_prop in H as [TN _].
  destruct (lword_facts w LW) as (NE & W & Q & F1 & F2 & F3 & F4 & F5 & _). pose proof (nat_to_text_idx k) as IK.
  destruct e as [s e' lab|t lab]; cbn [echunk times_num] in *; pose proof (lfree_word w lab LW LF) as NC.
  - apply andb_prop in TN as [T1 T2]. rewrite <- (app_nil_r (ichunk _ _ _ _)), ichunk_lines.
    apply nocc_bhead; [sc..|]. apply nocc_numline; [sc..|]. apply nocc_numline; [sc..|].
    apply nocc_strline; [sc|sc|sc|now apply nocc_quoted|sc|apply nostart_nil].
  - rewrite <- (app_nil_r (pchunk _ _ _)), pchunk_lines. apply nocc_bhead; [sc..|]. apply nocc_numline; [sc..|].
    apply nocc_strline; [sc|sc|sc|now apply nocc_quoted|sc|apply nostart_nil].
Qed.

Lemma nocc_entries w tab (isint : bool) : lword w -> noccb w (ekw isint) = true ->
  forall ents k, forallb (entry_ok tab isint) ents = true -> nocc w (long_entries tab isint k ents).
Proof.
  intros LW KW. destruct (lword_facts w LW) as (_ & W & _).
  induction ents as [|e ents IH]; intros k OK; [apply nostart_nil|].
  cbn [forallb] in OK. apply andb_prop in OK as [Oe OK].
  rewrite long_entries_cons, (entry_ok_kind _ _ _ Oe). apply nostart_app; [|apply IH, OK].
  apply nostart_app; [now apply nocc_sp|]. apply nostart_app; [now apply noccb_sound|].
  apply nostart_app; [apply noccb_sound; destruct LW as [[-> | [-> | ->]] | ->]; reflexivity|].
  exact (nocc_echunk w tab isint k e LW Oe).
Qed.

(* a list printed as  sep kw [body  sep kw [body ... : the split finds the bodies *)
Lemma RS_list {A} kw sep (ok : A -> bool) (body : nat -> A -> text) (pr : nat -> list A -> text) :
  kw <> [] -> nomatch kw sep -> (forall k x, ok x = true -> nomatch kw (body k x)) -> (forall k, pr k [] = []) ->
  (forall k x l, ok x = true -> pr k (x :: l) = sep ++ kw ++ 32%N :: 91%N :: body k x ++ pr (S k) l) ->
  forall l k trail cur acc, forallb ok l = true -> nomatch kw trail ->
  RS kw (pr k l ++ trail) cur acc
  = rev acc ++ glue sep (rev cur) (map (fun kx => body (fst kx) (snd kx)) (combine (seq k (length l)) l)) trail.
Proof.
  intros NE NS NB P0 PS. induction l as [|x l IH]; intros k trail cur acc OK NT.
  - rewrite P0. cbn [app length seq combine map glue]. rewrite <- (app_nil_r trail) at 1.
    rewrite (RS_clean _ trail [] cur acc NT), RS_nil. cbn [rev]. now rewrite rev_app_distr, rev_involutive.
  - cbn [forallb] in OK. apply andb_prop in OK as [Ox OK]. rewrite (PS k x l Ox), <- !app_assoc. cbn [app].
    rewrite <- app_assoc, (RS_clean _ sep _ cur acc NS), (RS_hit _ _ _ _ NE), (RS_clean _ (body k x) _ [] _ (NB k x Ox)).
    rewrite app_nil_r, (IH (S k) trail _ _ OK NT). cbn [length seq combine map glue fst snd rev].
    rewrite rev_app_distr, !rev_involutive. now rewrite <- app_assoc.
Qed.

Lemma RS_entries tab (isint : bool) ents k trail cur acc :
  forallb (entry_ok tab isint) ents = true -> allsp trail = true ->
  RS (ekw isint) (long_entries tab isint k ents ++ trail) cur acc
  = rev acc ++ glue TAB2 (rev cur) (map (fun ke => echunk tab (fst ke) (snd ke)) (combine (seq k (length ents)) ents)) trail.
Proof.
  pose proof (ekw_ok isint) as K. pose proof (kwok_wordstart _ K) as W. intros OK SP.
  apply (RS_list _ _ (entry_ok tab isint)); try assumption; try (now apply nocc_nomatch, nocc_sp).
  - destruct isint; discriminate.
  - intros j e Oe. exact (nocc_nomatch _ _ (nocc_echunk _ tab isint j e (or_introl K) Oe)).
  - reflexivity.
  - intros j e l Oe. now rewrite long_entries_cons, (entry_ok_kind _ _ _ Oe), <- !app_assoc.
Qed.

Lemma chunk_like_app e sp : allsp sp = true -> chunk_like e (e ++ sp) = true.
Proof. intro H. unfold chunk_like. now rewrite is_prefix_app, skipn_app_exact, H. Qed.

Lemma allsp_app a b : allsp (a ++ b) = allsp a && allsp b.
Proof. unfold allsp. apply forallb_app. Qed.

Lemma glue_match tab : forall ents k c0 trail, allsp trail = true ->
  match glue TAB2 c0 (map (fun ke => echunk tab (fst ke) (snd ke)) (combine (seq k (length ents)) ents)) trail with
  | th :: ecs => (exists sp, th = c0 ++ sp /\ allsp sp = true) /\ chunks_match (echunk tab) k ents ecs = true
  | [] => False
  end.
Proof.
  induction ents as [|e ents IH]; intros k c0 trail SP; cbn [length seq combine map glue].
  - split; [now exists trail|reflexivity].
  - specialize (IH (S k) (echunk tab k e) trail SP). cbn [fst snd].
    destruct (glue TAB2 (echunk tab k e) _ trail) as [|th ecs]; [contradiction|].
    destruct IH as ((sp & -> & S) & CM). split; [exists TAB2; split; reflexivity|].
    cbn [chunks_match]. now rewrite (chunk_like_app _ _ S), CM.
Qed.

Definition tbody (tab : numtab) (k : nat) (t : dtier) : text :=
  thead (nat_to_text k) (d_isint t) (d_name t) (num_str (lookup tab (d_xmin t))) (num_str (lookup tab (d_xmax t)))
        (nat_to_text (length (d_ents t)))
  ++ long_entries tab (d_isint t) 1 (d_ents t).

Definition tierL_ok (tab : numtab) (t : dtier) : bool :=
  nonl (d_name t) && lfree (d_name t) && numshape (num_str (lookup tab (d_xmin t))) && numshape (num_str (lookup tab (d_xmax t)))
  && forallb (entry_ok tab (d_isint t)) (d_ents t).

Lemma tierL_ok_spec tab t : tierL_ok tab t = true ->
  nonl (d_name t) = true /\ lfree (d_name t) = true /\ numshape (num_str (lookup tab (d_xmin t))) = true
  /\ numshape (num_str (lookup tab (d_xmax t))) = true /\ forallb (entry_ok tab (d_isint t)) (d_ents t) = true.
Proof.
  unfold tierL_ok. intro H. apply andb_prop in H as [H EO]. apply andb_prop in H as [H N2].
  apply andb_prop in H as [H N1]. apply andb_prop in H as [NN LF]. auto.
Qed.

(* a block holds no w, where its class, size keyword and entry keyword hold none: `item` in any block,
   IntervalTier in the block of a point tier *)
Lemma nocc_tbody w tab k t : lword w -> tierL_ok tab t = true ->
  noccb w (Q1 ++ class_name (d_isint t) ++ Q1) = true ->
  noccb w (if d_isint t then T "intervals: size = " else T "points: size = ") = true ->
  noccb w (ekw (d_isint t)) = true -> nocc w (tbody tab k t).
Proof.
  intros LW TO C1 C2 C3. destruct (tierL_ok_spec tab t TO) as (NN & LF & N1 & N2 & EO).
  apply nostart_app; [apply nocc_thead; try assumption; apply nat_to_text_idx|now apply nocc_entries].
Qed.

Theorem ltier_ok_free tab k t trail : tierL_ok tab t = true -> allsp trail = true ->
  ltier_ok tab k t (tbody tab k t ++ trail) = true.
Proof.
  intros TO SP. destruct (tierL_ok_spec tab t TO) as (NN & LF & N1 & N2 & EO).
  pose proof (ekw_ok (d_isint t)) as K.
  pose proof (nat_to_text_idx k) as IK. pose proof (nat_to_text_idx (length (d_ents t))) as IN.
  unfold ltier_ok. rewrite NN, N1, N2.
  assert (forallb (times_num tab) (d_ents t) = true) as ->.
  { revert EO. apply forallb_impl. intros e H. unfold entry_ok in H. apply andb_prop in H as [H _]. now apply andb_prop in H as [? _]. }
  assert ((if d_isint t then forallb is_DIb (d_ents t) else forallb (fun e => negb (is_DIb e)) (d_ents t)) = true) as ->.
  { destruct (d_isint t); revert EO; apply forallb_impl; intros e H; now rewrite (entry_ok_kind _ _ _ H). }
  rewrite !andb_true_r.
  (* the split at the entry keyword *)
  change (re_split (if d_isint t then T "intervals" else T "points") (tbody tab k t ++ trail))
    with (RS (ekw (d_isint t)) (tbody tab k t ++ trail) [] []).
  unfold tbody at 2. set (th := thead _ _ _ _ _ _).
  rewrite <- app_assoc, (RS_clean _ th _ [] [] (nomatch_thead _ _ _ _ _ _ _ K IK IN N1 N2 LF)).
  rewrite (RS_entries tab (d_isint t) _ 1%nat trail _ [] EO SP), app_nil_r. cbn [rev app]. rewrite rev_involutive.
  pose proof (glue_match tab (d_ents t) 1%nat th trail SP) as GM.
  destruct (glue TAB2 _ _ trail) as [|th' ecs]; [contradiction|]. destruct GM as ((sp & -> & S) & CM).
  rewrite (chunk_like_app _ _ S), CM. cbn [andb]. rewrite andb_true_r. clear th S CM.
  (* the class test *)
  apply Bool.eqb_true_iff. unfold has_sub. destruct (d_isint t) eqn:EI.
  - apply contains_spec. unfold tbody. rewrite EI, <- app_assoc, thead_lines.
    exists (nat_to_text k ++ T "]:" ++ NL1 ++ TAB2). eexists. unfold bhead, strline. rewrite <- !app_assoc.
    change CLASS_INT with (T "class" ++ EQ ++ Q1 ++ class_name true ++ Q1). rewrite <- !app_assoc. reflexivity.
  - assert (nocc CORE_I (tbody tab k t ++ trail)) as NC.
    { apply nostart_app; [apply nocc_tbody; try assumption; try (rewrite EI; reflexivity); now right|now apply nocc_sp]. }
    apply (nocc_contains CORE_I) in NC; [|discriminate].
    destruct (contains CLASS_INT (tbody tab k t ++ trail)) eqn:E; [|reflexivity]. exfalso.
    apply contains_spec in E as (a & b & E).
    assert (contains CORE_I (tbody tab k t ++ trail) = true) as C; [|congruence].
    apply contains_spec. exists (a ++ T "class = """), (34%N :: b). rewrite E.
    change CLASS_INT with (T "class = """ ++ CORE_I ++ [34%N]). rewrite <- !app_assoc. reflexivity.
Qed.

Lemma long_tiers_cons tab k t l' :
  long_tiers tab k (t :: l') = TAB ++ T "item" ++ 32%N :: 91%N :: tbody tab k t ++ long_tiers tab (S k) l'.
Proof. unfold tbody. rewrite <- app_assoc, thead_lines. cbn [long_tiers]. rewrite quoted_app. reflexivity. Qed.

Lemma RS_tiers tab tiers k cur acc : forallb (tierL_ok tab) tiers = true ->
  RS (T "item") (long_tiers tab k tiers) cur acc
  = rev acc ++ glue TAB (rev cur) (map (fun kt => tbody tab (fst kt) (snd kt)) (combine (seq k (length tiers)) tiers)) [].
Proof.
  assert (lword (T "item")) as LW by (left; left; reflexivity). intro OK.
  rewrite <- (app_nil_r (long_tiers tab k tiers)).
  apply (RS_list _ _ (tierL_ok tab)); try assumption; try reflexivity; try discriminate.
  - now apply nocc_nomatch, nocc_sp.
  - intros j t Ot. apply nocc_nomatch, nocc_tbody; try assumption; destruct (d_isint t); reflexivity.
  - intros j t l _. apply long_tiers_cons.
  - exact (nostart_nil _ _).
Qed.

Lemma glue_tiers_match tab : forall tiers k c0, forallb (tierL_ok tab) tiers = true ->
  match glue TAB c0 (map (fun kt => tbody tab (fst kt) (snd kt)) (combine (seq k (length tiers)) tiers)) [] with
  | x :: tcs => tiers_match tab k tiers tcs = true
  | [] => False
  end.
Proof.
  induction tiers as [|t tiers IH]; intros k c0 OK; cbn [length seq combine map glue]; [reflexivity|].
  cbn [forallb] in OK. apply andb_prop in OK as [Ot OK]. cbn [fst snd].
  (* the chunk of t: its body followed by the indentation of the next item, if any *)
  assert (forall c trail, allsp trail = true ->
            match glue TAB c (map (fun kt => tbody tab (fst kt) (snd kt)) (combine (seq (S k) (length tiers)) tiers)) trail with
            | th :: _ => exists sp, th = c ++ sp /\ allsp sp = true | [] => False end) as HD.
  { intros c trail S. destruct tiers; cbn [length seq combine map glue]; [now exists trail|now exists TAB]. }
  specialize (IH (S k) (tbody tab k t) OK). specialize (HD (tbody tab k t) [] eq_refl).
  destruct (glue TAB (tbody tab k t) _ []) as [|th tcs]; [contradiction|].
  destruct HD as (sp & -> & S). cbn [tiers_match]. now rewrite (ltier_ok_free tab k t sp Ot S), IH.
Qed.

Lemma print_long_shape tab g :
  print_long tab g = lhead tab g ++ T "item" ++ 32%N :: 91%N :: (T "]: " ++ NL1) ++ long_tiers tab 1 (dg_tiers g).
Proof. now rewrite lhead_app. Qed.

Lemma nocc_lhead tab g : numshape (num_str (lookup tab (dg_xmin g))) = true -> numshape (num_str (lookup tab (dg_xmax g))) = true ->
  nocc (T "item") (lhead tab g).
Proof.
  intros A B. unfold lhead.
  apply nostart_app; [apply noccb_sound; reflexivity|]. apply nostart_app; [apply noccb_sound; reflexivity|].
  apply nostart_app; [now apply nocc_num|]. apply nostart_app; [apply noccb_sound; reflexivity|].
  apply nostart_app; [apply noccb_sound; reflexivity|]. apply nostart_app; [now apply nocc_num|].
  apply nostart_app; [apply noccb_sound; reflexivity|]. apply nostart_app; [apply noccb_sound; reflexivity|].
  apply nostart_app; [apply noccb_sound; reflexivity|]. apply nostart_app; [apply noccb_sound; reflexivity|].
  apply nostart_app; [apply nocc_idx; [reflexivity|apply nat_to_text_idx]|apply noccb_sound; reflexivity].
Qed.

Definition fileL_ok (tab : numtab) (g : dtg) : bool :=
  numshape (num_str (lookup tab (dg_xmin g))) && numshape (num_str (lookup tab (dg_xmax g)))
  && forallb (tierL_ok tab) (dg_tiers g).

(* the side condition of the long whole-file theorem holds whenever names are single-line and no name or label
   contains item, intervals, points or IntervalTier, and numbers are number-shaped *)
Theorem lfile_ok_free tab g : fileL_ok tab g = true -> lfile_ok tab g = true.
Proof.
  unfold fileL_ok. intro H. apply andb_prop in H as [H OK]. apply andb_prop in H as [A B].
  unfold lfile_ok. rewrite A, B, !andb_true_r.
  assert (T "item" <> []) as NE by discriminate.
  change (re_split (T "item") (print_long tab g)) with (RS (T "item") (print_long tab g) [] []).
  rewrite print_long_shape.
  rewrite (RS_clean _ _ _ [] [] (nocc_nomatch _ _ (nocc_lhead tab g A B))). rewrite RS_hit by exact NE.
  rewrite (RS_clean _ (T "]: " ++ NL1) _ [] _) by (apply nomatchb_sound; reflexivity).
  rewrite app_nil_r. rewrite (RS_tiers tab _ 1%nat _ _ OK). cbn [rev app]. rewrite rev_involutive.
  pose proof (glue_tiers_match tab (dg_tiers g) 1%nat (T "]: " ++ NL1) OK) as GM.
  rewrite app_nil_r, rev_involutive.
  destruct (glue TAB _ _ []) as [|x tcs]; [contradiction|]. now rewrite text_eqb_refl, GM.
Qed.
