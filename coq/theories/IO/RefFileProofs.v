(* IO/RefFileProofs.v -- the reference (specification) reader on what the writers emit (C02):
   a written string token decodes to the string, for every string; tokenizing what the short
   writer or the long writer printed gives exactly the tokens of the data, and parsing them gives
   the data back -- for EVERY name and label (keywords, quotes, newlines, field look-alikes
   included), any number of tiers and entries.  Nothing is assumed about the text except that
   number tokens look like numbers. *)
From Coq Require Import String.
From PraatIO Require Import Check.IoCheck IO.CodecProofs IO.ShortFileProofs IO.LongFileProofs.
Open Scope Z_scope.

Lemma ref_string_unfold f s acc :
  ref_string (S f) s acc =
  match s with
  | [] => None
  | c :: s' =>
      if (c =? 34)%N then
        match s' with
        | d :: s'' => if (d =? 34)%N then ref_string f s'' (34%N :: acc) else Some (rev acc, s')
        | [] => Some (rev acc, s')
        end
      else ref_string f s' (c :: acc)
  end.
Proof.
  destruct s as [|c s']; [reflexivity|]. cbn [ref_string]. rewrite match34.
  destruct (c =? 34)%N; [|reflexivity]. destruct s' as [|d s'']; [reflexivity|]. now rewrite match34.
Qed.

Lemma ref_string_esc l : forall fuel acc rest,
  match rest with 34%N :: _ => False | _ => True end -> (length (esc l) < fuel)%nat ->
  ref_string fuel (esc l ++ 34%N :: rest) acc = Some (rev acc ++ l, rest).
Proof.
  induction l as [|c l IH]; intros [|f] acc rest HR HF; try (simpl in HF; lia); rewrite ref_string_unfold.
  - cbn [esc app]. rewrite app_nil_r. destruct rest as [|d rest']; [reflexivity|].
    destruct (N.eqb_spec d 34) as [->|_]; [contradiction|reflexivity].
  - cbn [esc] in *. destruct (N.eqb_spec c 34) as [->|NE]; cbn [app length] in *.
    + rewrite N.eqb_refl, IH by (trivial; lia). cbn [rev]. now rewrite <- app_assoc.
    + apply N.eqb_neq in NE. rewrite NE, IH by (trivial; lia). cbn [rev]. now rewrite <- app_assoc.
Qed.

(* the string token written for a name or label decodes to that name or label *)
Theorem ref_string_quoted l rest :
  match rest with 34%N :: _ => False | _ => True end ->
  ref_string (S (length (esc l ++ 34%N :: rest))) (esc l ++ 34%N :: rest) [] = Some (l, rest).
Proof.
  intro HR. rewrite ref_string_esc; [reflexivity|exact HR|rewrite app_length; simpl; lia].
Qed.

Lemma ref_string_len : forall fuel s acc str r, ref_string fuel s acc = Some (str, r) -> (length r < length s)%nat.
Proof.
  induction fuel as [|f IH]; intros s acc str r H; [discriminate|].
  rewrite ref_string_unfold in H. destruct s as [|c s']; [discriminate|].
  destruct (c =? 34)%N.
  - destruct s' as [|d s'']; [injection H as _ <-; simpl; lia|].
    destruct (d =? 34)%N.
    + apply IH in H. simpl. lia.
    + injection H as _ <-. simpl. lia.
  - apply IH in H. simpl. lia.
Qed.

Lemma ref_tokens_cons f c s' :
  ref_tokens (S f) (c :: s') =
  (if isspace c then ref_tokens f s'
   else if (c =? 34)%N then
     match ref_string (S (length s')) s' [] with
     | Some (str, r) => match ref_tokens f r with Some l => Some (TStr str :: l) | None => None end
     | None => None end
   else if (c =? 33)%N then
     match take_line s' with
     | Some (_, r) => ref_tokens f r
     | None => Some [] end
   else
     let '(w, r) := take_while (fun x => negb (isspace x)) (c :: s') in
     match ref_tokens f r with
     | Some l =>
         if (c =? 60)%N && match last_opt w with Some 62%N => true | _ => false end then Some (TFlag w :: l)
         else if is_number_word w then Some (TNum w :: l) else Some l
     | None => None end).
Proof. reflexivity. Qed.

Lemma ref_tokens_fuel : forall n s f1 f2, (length s <= n)%nat -> (length s < f1)%nat -> (length s < f2)%nat ->
  ref_tokens f1 s = ref_tokens f2 s.
Proof.
  induction n as [|n IH]; intros s [|f1] [|f2] L L1 L2; try lia; (destruct s as [|c s']; [reflexivity|]);
    cbn [length] in L, L1, L2; [lia|].
  rewrite !ref_tokens_cons.
  destruct (isspace c) eqn:SP; [apply IH; lia|].
  destruct (c =? 34)%N.
  { destruct (ref_string (S (length s')) s' []) as [[str r]|] eqn:RS; [|reflexivity].
    apply ref_string_len in RS. now rewrite (IH r f1 f2) by lia. }
  destruct (c =? 33)%N.
  { destruct (take_line s') as [[l r]|] eqn:TL; [|reflexivity]. apply take_line_len in TL. apply IH; lia. }
  cbn [take_while]. rewrite SP. cbn [negb].
  pose proof (tw_len (fun x => negb (isspace x)) s') as TL.
  destruct (take_while (fun x => negb (isspace x)) s') as [w r]. cbn [snd] in TL.
  now rewrite (IH r f1 f2) by lia.
Qed.

Definition pre (l : list tok) (o : option (list tok)) : option (list tok) :=
  match o with Some m => Some (l ++ m) | None => None end.

Lemma pre_pre a b o : pre a (pre b o) = pre (a ++ b) o.
Proof. destruct o; simpl; [now rewrite app_assoc|reflexivity]. Qed.

Lemma pre_nil o : pre [] o = o.
Proof. now destruct o. Qed.

Definition cls (w : text) : list tok :=
  match w with
  | c :: _ =>
      if (c =? 60)%N && match last_opt w with Some 62%N => true | _ => false end then [TFlag w]
      else if is_number_word w then [TNum w] else []
  | [] => []
  end.

(* the tokenizer's defining equation, free of fuel *)
Lemma tokz_cons c s' :
  tokenize (c :: s') =
  if isspace c then tokenize s'
  else if (c =? 34)%N then
    match ref_string (S (length s')) s' [] with Some (str, r) => pre [TStr str] (tokenize r) | None => None end
  else if (c =? 33)%N then match take_line s' with Some (_, r) => tokenize r | None => Some [] end
  else pre (cls (fst (take_while (fun x => negb (isspace x)) (c :: s'))))
           (tokenize (snd (take_while (fun x => negb (isspace x)) (c :: s')))).
Proof.
  assert (forall r, (length r <= length s')%nat -> ref_tokens (S (length s')) r = tokenize r) as F
    by (intros r L; apply (ref_tokens_fuel (length r)); simpl; lia).
  unfold tokenize at 1. cbn [length]. rewrite ref_tokens_cons.
  destruct (isspace c) eqn:SP; [apply F; lia|].
  destruct (c =? 34)%N.
  { destruct (ref_string (S (length s')) s' []) as [[str r]|] eqn:RS; [|reflexivity].
    apply ref_string_len in RS. now rewrite F by lia. }
  destruct (c =? 33)%N.
  { destruct (take_line s') as [[l r]|] eqn:TL; [|reflexivity]. apply take_line_len in TL. apply F; lia. }
  cbn [take_while]. rewrite SP. cbn [negb].
  pose proof (tw_len (fun x => negb (isspace x)) s') as TL.
  destruct (take_while (fun x => negb (isspace x)) s') as [w r]. cbn [fst snd] in *. rewrite F by exact TL.
  destruct (tokenize r); [|reflexivity]. unfold cls, pre.
  destruct ((c =? 60)%N && _); [reflexivity|]. destruct (is_number_word (c :: w)); reflexivity.
Qed.

Lemma tokz_space c s : isspace c = true -> tokenize (c :: s) = tokenize s.
Proof. intro H. now rewrite tokz_cons, H. Qed.

Lemma tokz_string l rest : match rest with 34%N :: _ => False | _ => True end ->
  tokenize (34%N :: esc l ++ 34%N :: rest) = pre [TStr l] (tokenize rest).
Proof.
  intro HR. rewrite tokz_cons. change (isspace 34%N) with false. change (34 =? 34)%N with true. cbn iota.
  now rewrite (ref_string_quoted l rest HR).
Qed.

(* a word: no white space in it, not starting a string or a comment *)
Definition wordb (w : text) : bool :=
  match w with
  | c :: _ => negb (c =? 34)%N && negb (c =? 33)%N && forallb (fun x => negb (isspace x)) w
  | [] => false
  end.

Lemma tokz_word w c rest : wordb w = true -> isspace c = true ->
  tokenize (w ++ c :: rest) = pre (cls w) (tokenize rest).
Proof.
  intros W SP. destruct w as [|c0 w']; [discriminate|]. unfold wordb in W.
  apply andb_prop in W as [W WA]. apply andb_prop in W as [W1 W2]. apply negb_true_iff in W1, W2.
  pose proof WA as WA0. cbn [forallb] in WA0. apply andb_prop in WA0 as [S0 _]. apply negb_true_iff in S0.
  cbn [app]. rewrite tokz_cons, S0, W1, W2. change (c0 :: w' ++ c :: rest) with ((c0 :: w') ++ c :: rest).
  rewrite (tw_app (fun x => negb (isspace x)) (c0 :: w') (c :: rest)) by (now rewrite SP).
  rewrite (tw_all_true _ _ WA). cbn [fst snd app]. now rewrite (tokz_space c rest SP).
Qed.

(* comment text: words that are neither numbers nor flags; each step uses one unit of fuel per character or word *)
Fixpoint commentb (fuel : nat) (p : text) : bool :=
  match fuel with
  | O => false
  | S f =>
      match p with
      | [] => true
      | c :: p' =>
          if isspace c then commentb f p'
          else let '(w, r) := take_while (fun x => negb (isspace x)) p in
               match r with
               | [] => false
               | _ :: r' => wordb w && (match cls w with [] => true | _ => false end) && commentb f r'
               end
      end
  end.

Theorem comment_skip : forall f p rest, commentb f p = true -> tokenize (p ++ rest) = tokenize rest.
Proof.
  induction f as [|f IH]; intros p rest H; [discriminate|].
  destruct p as [|c p']; [reflexivity|]. cbn [commentb] in H.
  destruct (isspace c) eqn:SP.
  - cbn [app]. rewrite (tokz_space _ _ SP). apply IH, H.
  - pose proof (tw_split (fun x => negb (isspace x)) (c :: p')) as SPL.
    pose proof (tw_stop (fun x => negb (isspace x)) (c :: p')) as ST.
    destruct (take_while (fun x => negb (isspace x)) (c :: p')) as [w r]. cbn [fst snd] in *.
    destruct r as [|c' r']; [discriminate|]. apply negb_false_iff in ST.
    apply andb_prop in H as [H HR]. apply andb_prop in H as [HW HC].
    rewrite SPL, <- app_assoc. cbn [app]. rewrite (tokz_word w c' (r' ++ rest) HW ST).
    destruct (cls w); [|discriminate]. rewrite pre_nil. apply IH, HR.
Qed.

Definition refnum (t : text) : bool :=
  wordb t && is_number_word t && match t with 60%N :: _ => false | _ => true end.

Lemma cls_num t : refnum t = true -> cls t = [TNum t].
Proof.
  unfold refnum. intro H. apply andb_prop in H as [H F]. apply andb_prop in H as [W NW].
  destruct t as [|c t]; [discriminate|]. unfold cls. rewrite NW.
  destruct (N.eqb_spec c 60) as [->|NE]; [discriminate|]. reflexivity.
Qed.

Definition toks_entry (tab : numtab) (e : dentry) : list tok :=
  match e with
  | DI s e' l => [TNum (num_str (lookup tab s)); TNum (num_str (lookup tab e')); TStr l]
  | DP t l => [TNum (num_str (lookup tab t)); TStr l]
  end.

Definition toks_tier (tab : numtab) (t : dtier) : list tok :=
  TStr (class_name (d_isint t)) :: TStr (d_name t)
  :: TNum (num_str (lookup tab (d_xmin t))) :: TNum (num_str (lookup tab (d_xmax t)))
  :: TNum (nat_to_text (length (d_ents t))) :: flat_map (toks_entry tab) (d_ents t).

Definition toks_tg (tab : numtab) (g : dtg) : list tok :=
  TStr (T "ooTextFile") :: TStr (T "TextGrid")
  :: TNum (num_str (lookup tab (dg_xmin g))) :: TNum (num_str (lookup tab (dg_xmax g)))
  :: TFlag (T "<exists>") :: TNum (nat_to_text (length (dg_tiers g))) :: flat_map (toks_tier tab) (dg_tiers g).

Definition times_ref (tab : numtab) (e : dentry) : bool :=
  match e with
  | DI s e' _ => refnum (num_str (lookup tab s)) && refnum (num_str (lookup tab e'))
  | DP t _ => refnum (num_str (lookup tab t))
  end.

Definition tier_ref (tab : numtab) (t : dtier) : bool :=
  refnum (num_str (lookup tab (d_xmin t))) && refnum (num_str (lookup tab (d_xmax t)))
  && forallb (times_ref tab) (d_ents t).

Definition tg_ref (tab : numtab) (g : dtg) : bool :=
  refnum (num_str (lookup tab (dg_xmin g))) && refnum (num_str (lookup tab (dg_xmax g)))
  && forallb (tier_ref tab) (dg_tiers g).

Lemma digit_nonspace c : isdigit c = true -> negb (isspace c) = true.
Proof. unfold isdigit, isspace. lia. Qed.

Lemma inw_unfold w :
  is_number_word w =
  (let w0 := strip_minus w in
   let '(ip, r1) := take_while isdig w0 in
   match ip with
   | [] => false
   | _ =>
      let r2 := match r1 with
                | 46%N :: r => let '(fp, r') := take_while isdig r in
                               match fp with [] => r1 | _ => r' end
                | _ => r1 end in
      match r2 with
      | [] => true
      | c :: r =>
          if ((c =? 101) || (c =? 69))%N then
            let r := match r with 43%N :: x | 45%N :: x => x | _ => r end in
            let '(ep, r') := take_while isdig r in
            match ep, r' with _ :: _, [] => true | _, _ => false end
          else false
      end
   end).
Proof. reflexivity. Qed.

Lemma refnum_digits j : j <> [] -> forallb isdigit j = true -> refnum j = true.
Proof.
  intros NE H. destruct j as [|c j']; [congruence|]. unfold refnum.
  pose proof H as H0. cbn [forallb] in H0. apply andb_prop in H0 as [Hc _].
  assert (c <> 45%N /\ (c =? 60)%N = false /\ (c =? 34)%N = false /\ (c =? 33)%N = false) as (N45 & N60 & N34 & N33)
    by (unfold isdigit in Hc; lia).
  rewrite !andb_true_iff. repeat split.
  - unfold wordb. rewrite N34, N33. exact (forallb_impl _ _ _ digit_nonspace H).
  - rewrite inw_unfold, (strip_minus_ne c j' N45). cbv zeta. now rewrite (tw_all_true isdig _ H).
  - apply N.eqb_neq in N60. destruct c as [|p]; [reflexivity|].
    do 6 (try (destruct p as [p|p|]; try reflexivity)). congruence.
Qed.

Lemma refnum_nat n : refnum (nat_to_text n) = true.
Proof. apply refnum_digits; [apply nat_to_text_ne|apply nat_to_text_digits]. Qed.

(* emits x l: wherever the text x stands in a file, the tokenizer reads it as the tokens l
   and goes on with what follows.  The writers' texts are right-nested concatenations, so
   the lemmas below take the rest of the line or block (y, with its tokens m) as a
   premise and are applied from left to right along the text. *)

Definition emits (x : text) (l : list tok) : Prop := forall rest, tokenize (x ++ rest) = pre l (tokenize rest).

Lemma emits_nil : emits [] [].
Proof. intro rest. now rewrite pre_nil. Qed.

Lemma emits_app x y l m : emits x l -> emits y m -> emits (x ++ y) (l ++ m).
Proof. intros X Y rest. now rewrite <- app_assoc, X, Y, pre_pre. Qed.

Lemma emits_all x l : emits x l -> tokenize x = Some l.
Proof. intro X. specialize (X []). rewrite app_nil_r in X. rewrite X. cbn. now rewrite app_nil_r. Qed.

Lemma emits_flat_map {A} (f : A -> text) (g : A -> list tok) (p : A -> bool) xs :
  (forall a, p a = true -> emits (f a) (g a)) -> forallb p xs = true -> emits (flat_map f xs) (flat_map g xs).
Proof.
  intro F. induction xs as [|a xs IH]; intro H; [exact emits_nil|].
  cbn [forallb] in H. apply andb_prop in H as [Ha H]. cbn [flat_map]. apply emits_app; auto.
Qed.

Lemma emits_sp c y m : isspace c = true -> emits y m -> emits (c :: y) m.
Proof. intros SP Y rest. cbn [app]. now rewrite (tokz_space c _ SP). Qed.

(* key words, indentation and punctuation are comment; 40 is more fuel than any piece of the writers' texts needs *)
Lemma emits_skip p y m : commentb 40 p = true -> emits y m -> emits (p ++ y) m.
Proof. intros C Y rest. now rewrite <- app_assoc, (comment_skip 40 p _ C). Qed.

(* value v l: v, when white space follows it, is read as the tokens l *)
Definition value (v : text) (l : list tok) : Prop :=
  forall c y m, isspace c = true -> emits y m -> emits (v ++ c :: y) (l ++ m).

Lemma value_word w : wordb w = true -> value w (cls w).
Proof. intros W c y m SP Y rest. rewrite <- app_assoc. cbn [app]. now rewrite (tokz_word w c _ W SP), Y, pre_pre. Qed.

Lemma value_num t : refnum t = true -> value t [TNum t].
Proof.
  intro H. rewrite <- (cls_num t H). apply value_word.
  unfold refnum in H. apply andb_prop in H as [H _]. now apply andb_prop in H as [W _].
Qed.

Lemma value_str l : value (quoted l) [TStr l].
Proof.
  intros c y m SP Y rest. unfold quoted, Q1. repeat rewrite <- app_assoc. cbn [app].
  rewrite tokz_string; [now rewrite (tokz_space c _ SP), Y, pre_pre|].
  cbn iota. rewrite match34. now destruct (N.eqb_spec c 34) as [->|_].
Qed.

Lemma emits_cls (b : bool) c y m : isspace c = true -> emits y m ->
  emits (Q1 ++ class_name b ++ Q1 ++ c :: y) (TStr (class_name b) :: m).
Proof.
  intros SP Y. assert (Q1 ++ class_name b ++ Q1 ++ c :: y = quoted (class_name b) ++ c :: y) as -> by (destruct b; reflexivity).
  now apply value_str.
Qed.

Lemma value_exists : value (T "<exists>") [TFlag (T "<exists>")].
Proof. exact (value_word (T "<exists>") eq_refl). Qed.

(* a line of the long form: n indentation steps, a key word with its '=', the value, a space *)
Lemma emits_field n {kw v l y m} : value v l -> commentb 40 kw = true -> emits y m ->
  emits (Nat.iter n (app TAB) (kw ++ v ++ SPNL ++ y)) (l ++ m).
Proof.
  intros V C Y. induction n as [|n IH]; cbn [Nat.iter]; [|now apply emits_skip].
  apply emits_skip; [exact C|]. apply V; [reflexivity|]. now apply emits_sp.
Qed.

Lemma emits_header y m : emits y m -> emits (HEADER ++ y) (TStr (T "ooTextFile") :: TStr (T "TextGrid") :: m).
Proof.
  intro Y.
  change (HEADER ++ y) with (T "File type = " ++ quoted (T "ooTextFile") ++ 10%N :: T "Object class = " ++ quoted (T "TextGrid") ++ 10%N :: 10%N :: y).
  apply emits_skip; [reflexivity|]. apply value_str; [reflexivity|].
  apply emits_skip; [reflexivity|]. apply value_str; [reflexivity|].
  now apply emits_sp.
Qed.

Lemma emits_short_entry tab e : times_ref tab e = true -> emits (short_entry tab e) (toks_entry tab e).
Proof.
  intro H. destruct e as [s e' l|t l]; cbn [short_entry toks_entry times_ref] in *.
  - apply andb_prop in H as [H1 H2].
    apply (value_num _ H1); [reflexivity|]. apply (value_num _ H2); [reflexivity|].
    apply value_str; [reflexivity|exact emits_nil].
  - apply (value_num _ H); [reflexivity|]. apply value_str; [reflexivity|exact emits_nil].
Qed.

Lemma emits_short_tier tab t : tier_ref tab t = true -> emits (short_tier tab t) (toks_tier tab t).
Proof.
  unfold tier_ref. intro H. apply andb_prop in H as [H HE]. apply andb_prop in H as [H1 H2].
  unfold short_tier, toks_tier.
  apply emits_cls; [reflexivity|]. apply value_str; [reflexivity|].
  apply (value_num _ H1); [reflexivity|]. apply (value_num _ H2); [reflexivity|].
  apply (value_num _ (refnum_nat _)); [reflexivity|].
  exact (emits_flat_map _ _ _ _ (emits_short_entry tab) HE).
Qed.

Theorem tokenize_short tab g : tg_ref tab g = true -> tokenize (print_short tab g) = Some (toks_tg tab g).
Proof.
  unfold tg_ref. intro H. apply andb_prop in H as [H HT]. apply andb_prop in H as [H1 H2].
  apply emits_all. unfold print_short, toks_tg.
  apply emits_header. apply (value_num _ H1); [reflexivity|]. apply (value_num _ H2); [reflexivity|].
  apply value_exists; [reflexivity|]. apply (value_num _ (refnum_nat _)); [reflexivity|].
  exact (emits_flat_map _ _ _ _ (emits_short_tier tab) HT).
Qed.

Lemma text_to_nat_fuel : forall fuel n acc, (n < fuel)%nat ->
  text_to_nat (nat_to_text_fuel fuel n acc) 0 = text_to_nat acc n.
Proof.
  induction fuel as [|f IH]; intros n acc L; [lia|]. cbn [nat_to_text_fuel].
  pose proof (Nat.mod_upper_bound n 10 ltac:(lia)) as D. pose proof (Nat.div_mod n 10 ltac:(lia)) as DM.
  assert (text_to_nat (digit (n mod 10) :: acc) (n / 10) = text_to_nat acc n) as E.
  { cbn [text_to_nat]. unfold digit. replace (isdig (48 + N.of_nat (n mod 10))) with true by (unfold isdig; lia).
    f_equal. lia. }
  destruct (n / 10 =? 0)%nat eqn:Z.
  - apply Nat.eqb_eq in Z. now rewrite <- E, Z.
  - apply Nat.eqb_neq in Z. rewrite IH; [exact E|]. pose proof (Nat.div_lt n 10). lia.
Qed.

Lemma text_to_nat_nat n : text_to_nat (nat_to_text n) 0 = Some n.
Proof. unfold nat_to_text. rewrite text_to_nat_fuel by lia. reflexivity. Qed.

Definition kinds_ok (t : dtier) : bool :=
  if d_isint t then forallb is_DIb (d_ents t) else forallb (fun e => negb (is_DIb e)) (d_ents t).

Lemma ref_entries_toks tab (isint : bool) : forall ents rest,
  (if isint then forallb is_DIb ents else forallb (fun e => negb (is_DIb e)) ents) = true ->
  ref_entries isint (length ents) (flat_map (toks_entry tab) ents ++ rest) = Some (map (expect_entry tab) ents, rest).
Proof.
  induction ents as [|e ents IH]; intros rest K; [reflexivity|].
  assert ((if isint then forallb is_DIb ents else forallb (fun e => negb (is_DIb e)) ents) = true
          /\ (if isint then is_DIb e else negb (is_DIb e)) = true) as [K' Ke].
  { destruct isint; cbn [forallb] in K; apply andb_prop in K as [? ?]; now split. }
  cbn [length flat_map map]. rewrite <- app_assoc.
  destruct isint; destruct e as [s e' l|t l]; cbn [is_DIb negb] in Ke; try discriminate;
    cbn [toks_entry app ref_entries expect_entry]; now rewrite (IH rest K').
Qed.

Lemma ref_tiers_toks tab : forall tiers rest, forallb kinds_ok tiers = true ->
  ref_tiers (length tiers) (flat_map (toks_tier tab) tiers ++ rest) = Some (map (expect_tier tab) tiers, rest).
Proof.
  induction tiers as [|t tiers IH]; intros rest K; [reflexivity|].
  cbn [forallb] in K. apply andb_prop in K as [Kt K].
  cbn [length flat_map map]. rewrite <- app_assoc. unfold toks_tier at 1. cbn [app ref_tiers].
  assert (text_eqb (class_name (d_isint t)) (T "IntervalTier") = d_isint t) as -> by (destruct (d_isint t); reflexivity).
  assert (d_isint t || text_eqb (class_name (d_isint t)) (T "TextTier") = true) as -> by (destruct (d_isint t); reflexivity).
  rewrite text_to_nat_nat. rewrite (ref_entries_toks tab (d_isint t) _ _ Kt). rewrite (IH rest K). reflexivity.
Qed.

Lemma ref_parse_toks tab g s : tokenize s = Some (toks_tg tab g) -> forallb kinds_ok (dg_tiers g) = true ->
  ref_parse s = Some (expect_tg tab g).
Proof.
  intros TK K. unfold ref_parse. rewrite TK. unfold toks_tg.
  change (text_eqb (T "ooTextFile") (T "ooTextFile") && text_eqb (T "TextGrid") (T "TextGrid")
          && text_eqb (T "<exists>") (T "<exists>")) with true. cbn iota.
  rewrite text_to_nat_nat.
  rewrite <- (app_nil_r (flat_map (toks_tier tab) (dg_tiers g))). rewrite (ref_tiers_toks tab _ [] K). unfold expect_tg. reflexivity.
Qed.

(* the specification reader reads every written short-form file to exactly the data it was
   written from: all names and labels, any number of tiers and entries *)
Theorem ref_parse_short tab g : tg_ref tab g = true -> forallb kinds_ok (dg_tiers g) = true ->
  ref_parse (print_short tab g) = Some (expect_tg tab g).
Proof. intros H K. exact (ref_parse_toks tab g _ (tokenize_short tab g H) K). Qed.

(* a line  kw [k]:  ; the key word is given as p ++ "[" *)
Lemma emits_index n p k y m : commentb 40 p = true -> emits y m ->
  emits (Nat.iter n (app TAB) ((p ++ [91%N]) ++ nat_to_text k ++ T "]:" ++ NL1 ++ y)) m.
Proof.
  intros C Y. induction n as [|n IH]; cbn [Nat.iter]; [|now apply emits_skip].
  rewrite <- app_assoc. apply emits_skip; [exact C|].
  replace ([91%N] ++ nat_to_text k ++ T "]:" ++ NL1 ++ y) with ((91%N :: nat_to_text k ++ T "]:") ++ 10%N :: y)
    by (cbn [app]; now rewrite <- app_assoc).
  apply (value_word (91%N :: nat_to_text k ++ T "]:")); [|reflexivity|exact Y].
  change (wordb (91%N :: nat_to_text k ++ T "]:")) with (forallb (fun x => negb (isspace x)) ([91%N] ++ nat_to_text k ++ T "]:")).
  now rewrite !forallb_app, (forallb_impl _ _ _ digit_nonspace (nat_to_text_digits k)).
Qed.

Lemma emits_long_entries tab (isint : bool) : forall ents k, forallb (times_ref tab) ents = true ->
  emits (long_entries tab isint k ents) (flat_map (toks_entry tab) ents).
Proof.
  induction ents as [|e ents IH]; intros k H; [exact emits_nil|].
  cbn [forallb] in H. apply andb_prop in H as [He H].
  cbn [long_entries flat_map]. apply emits_app; [|exact (IH (S k) H)].
  destruct e as [s e' l|t l]; cbn [times_ref toks_entry] in *.
  - apply andb_prop in He as [H1 H2]. apply (emits_index 2 (T "intervals ")); [reflexivity|].
    apply (emits_field 3 (value_num _ H1)); [reflexivity|]. apply (emits_field 3 (value_num _ H2)); [reflexivity|].
    apply (emits_field 3 (value_str l)); [reflexivity|exact emits_nil].
  - apply (emits_index 2 (T "points ")); [reflexivity|].
    apply (emits_field 3 (value_num _ He)); [reflexivity|]. apply (emits_field 3 (value_str l)); [reflexivity|exact emits_nil].
Qed.

Lemma emits_long_tiers tab : forall tiers k, forallb (tier_ref tab) tiers = true ->
  emits (long_tiers tab k tiers) (flat_map (toks_tier tab) tiers).
Proof.
  induction tiers as [|t tiers IH]; intros k H; [exact emits_nil|].
  cbn [forallb] in H. apply andb_prop in H as [Ht H]. unfold tier_ref in Ht.
  apply andb_prop in Ht as [Ht HE]. apply andb_prop in Ht as [H1 H2].
  cbn [long_tiers flat_map]. unfold toks_tier at 1.
  apply (emits_index 1 (T "item ")); [reflexivity|].
  do 3 (apply emits_skip; [reflexivity|]). apply emits_cls; [reflexivity|]. apply emits_sp; [reflexivity|].
  apply (emits_field 2 (value_str _)); [reflexivity|].
  apply (emits_field 2 (value_num _ H1)); [reflexivity|]. apply (emits_field 2 (value_num _ H2)); [reflexivity|].
  apply (emits_field 2 (value_num _ (refnum_nat _))); [destruct (d_isint t); reflexivity|].
  exact (emits_app _ _ _ _ (emits_long_entries tab (d_isint t) _ 1%nat HE) (IH (S k) H)).
Qed.

Theorem tokenize_long tab g : tg_ref tab g = true -> tokenize (print_long tab g) = Some (toks_tg tab g).
Proof.
  unfold tg_ref. intro H. apply andb_prop in H as [H HT]. apply andb_prop in H as [H1 H2].
  apply emits_all. unfold print_long, toks_tg. apply emits_header.
  apply (emits_field 0 (value_num _ H1)); [reflexivity|]. apply (emits_field 0 (value_num _ H2)); [reflexivity|].
  change (T "tiers? <exists> " ++ NL1 ++ ?r) with (T "tiers? " ++ T "<exists>" ++ 32%N :: 10%N :: r).
  apply emits_skip; [reflexivity|]. apply value_exists; [reflexivity|]. apply emits_sp; [reflexivity|].
  apply (emits_field 0 (value_num _ (refnum_nat _))); [reflexivity|].
  apply emits_skip; [reflexivity|]. apply emits_sp; [reflexivity|].
  exact (emits_long_tiers tab _ 1%nat HT).
Qed.

(* the specification reader reads every written long-form file to exactly the data it was written from *)
Theorem ref_parse_long tab g : tg_ref tab g = true -> forallb kinds_ok (dg_tiers g) = true ->
  ref_parse (print_long tab g) = Some (expect_tg tab g).
Proof. intros H K. exact (ref_parse_toks tab g _ (tokenize_long tab g H) K). Qed.
