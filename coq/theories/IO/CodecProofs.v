(* IO/CodecProofs.v -- the text layer of the TextGrid writers and readers:
   quote doubling and un-doubling, the odd-quote-run terminator of the short-form
   reader, the greedy quoted group of the long-form reader, number rows, and the
   entry loops of a short-form tier block (C01, C03); that written quotes come in
   pairs (quotes_paired_esc) is for C02. *)
From PraatIO Require Import IO.IoModel.
Open Scope Z_scope.

(* before lia runs, settle the implications whose premise stands in the context (the library's clean-up step for
   division equations does just that): the lia calls of the IO proofs cost much less to check with it.  The
   setting reaches every file that imports this one. *)
Ltac Zify.zify_post_hook ::= Z.euclidean_division_equations_cleanup.

Lemma unesc_cons c s : unesc (c :: s) =
  if (c =? 34)%N then match s with d :: s' => if (d =? 34)%N then 34%N :: unesc s' else c :: unesc s | [] => [c] end
  else c :: unesc s.
Proof.
  cbn [unesc]. rewrite match34. destruct (N.eqb_spec c 34) as [->|_]; [|reflexivity].
  destruct s as [|d s']; [reflexivity|]. rewrite match34. destruct (d =? 34)%N; reflexivity.
Qed.

Lemma unesc_esc l : unesc (esc l) = l.
Proof.
  induction l as [|c l IH]; [reflexivity|]. cbn [esc].
  destruct (N.eqb_spec c 34) as [->|NE].
  - rewrite unesc_cons. cbn. now rewrite IH.
  - apply N.eqb_neq in NE. now rewrite unesc_cons, NE, IH.
Qed.

Lemma esc_app a b : esc (a ++ b) = esc a ++ esc b.
Proof.
  induction a as [|c a IH]; simpl; [reflexivity|].
  destruct (c =? 34)%N; simpl; now rewrite IH.
Qed.

Lemma esc_length l : (length l <= length (esc l))%nat.
Proof. induction l as [|c l IH]; simpl; [lia|]. destruct (c =? 34)%N; simpl; lia. Qed.

Lemma esc_rev l : esc (rev l) = rev (esc l).
Proof.
  induction l as [|c l IH]; simpl; [reflexivity|].
  rewrite esc_app, IH. simpl. destruct (c =? 34)%N eqn:E; simpl.
  - apply N.eqb_eq in E. subst. rewrite <- app_assoc. reflexivity.
  - reflexivity.
Qed.

Lemma isspace_not_quote c : isspace c = true -> (c =? 34)%N = false.
Proof. intro H. destruct (c =? 34)%N eqn:E; [|reflexivity]. apply N.eqb_eq in E. subst. discriminate. Qed.

Lemma lstrip_esc l : lstrip (esc l) = esc (lstrip l).
Proof.
  induction l as [|c l IH]; [reflexivity|].
  destruct (isspace c) eqn:S.
  - pose proof (isspace_not_quote _ S) as E. cbn [esc lstrip]. rewrite E, S. cbn [lstrip]. now rewrite S.
  - destruct (c =? 34)%N eqn:E; cbn [esc lstrip]; rewrite S, E; cbn [lstrip esc]; rewrite ?E.
    + reflexivity.
    + now rewrite S.
Qed.

Lemma strip_esc l : strip (esc l) = esc (strip l).
Proof. unfold strip, rstrip. rewrite lstrip_esc, <- esc_rev, lstrip_esc, esc_rev. reflexivity. Qed.

(* the written form contains no lone quote *)
Fixpoint quotes_paired (s : text) : bool :=
  match s with
  | 34%N :: 34%N :: s' => quotes_paired s'
  | 34%N :: _ => false
  | _ :: s' => quotes_paired s'
  | [] => true
  end.

Lemma quotes_paired_esc l : quotes_paired (esc l) = true.
Proof.
  induction l as [|c l IH]; [reflexivity|]. cbn [esc].
  destruct (c =? 34)%N eqn:E; [exact IH|]. cbn [quotes_paired]. now rewrite match34, E.
Qed.

Definition QS (n : nat) : text := repeat 34%N n.

Lemma quote_run_QS n c t : isq c = false -> quote_run (QS n ++ c :: t) = Some (n, c :: t).
Proof.
  intro H. induction n as [|n IH]; simpl.
  - now rewrite H.
  - unfold QS in IH. now rewrite IH.
Qed.

Lemma QS_app n m : QS n ++ QS m = QS (n + m).
Proof. unfold QS. now rewrite repeat_app. Qed.

Lemma rev_QS n : rev (QS n) = QS n.
Proof.
  induction n as [|n IH]; [reflexivity|]. change (QS (S n)) with (34%N :: QS n).
  cbn [rev]. rewrite IH. change [34%N] with (QS 1). rewrite QS_app.
  replace (n + 1)%nat with (S n) by lia. reflexivity.
Qed.

Lemma esc_nonq c l : isq c = false -> esc (c :: l) = c :: esc l.
Proof. unfold isq. intro H. simpl. now rewrite H. Qed.

Lemma odd_double_S n : Nat.odd (2 * n + 1) = true.
Proof. replace (2 * n + 1)%nat with (1 + 2 * n)%nat by lia. rewrite Nat.odd_add_mul_2. reflexivity. Qed.
Lemma odd_double n : Nat.odd (2 * n) = false.
Proof. replace (2 * n)%nat with (0 + 2 * n)%nat by lia. rewrite Nat.odd_add_mul_2. reflexivity. Qed.

Lemma scan_run f n c t acc : isq c = false -> (1 <= n)%nat ->
  scan_text (S f) (QS n ++ c :: t) acc =
  if Nat.odd n then Ok (rev (QS n ++ acc), c :: t) else scan_text f (c :: t) (QS n ++ acc).
Proof.
  intros Hc Hn. destruct n as [|n]; [lia|].
  change (QS (S n) ++ c :: t) with (34%N :: (QS n ++ c :: t)).
  cbn [scan_text]. change (isq 34%N) with true. cbv iota.
  change (34%N :: QS n ++ c :: t) with (QS (S n) ++ c :: t).
  rewrite (quote_run_QS _ _ _ Hc). reflexivity.
Qed.

Lemma scan_nonq f y t acc : isq y = false -> scan_text (S f) (y :: t) acc = scan_text f t (y :: acc).
Proof. intro H. cbn [scan_text]. now rewrite H. Qed.

(* the scan of _fetchTextRow over an escaped label followed by the closing quote and a non-quote
   character stops exactly after the closing quote.  The scan takes a whole run of quotes in one
   step, so the statement carries the run it stands in: the 2j quotes written for j quotes of the
   label just before l. *)
Lemma scan_esc_run l : forall j fuel acc c rest, isq c = false -> (length l + j < fuel)%nat ->
  scan_text fuel (QS (2 * j) ++ esc l ++ 34%N :: c :: rest) acc
  = Ok (rev acc ++ QS (2 * j) ++ esc l ++ [34%N], c :: rest).
Proof.
  induction l as [|x l IH]; intros j [|f] acc c rest Hc Hf; try (simpl in Hf; lia).
  - (* the closing quote makes the run odd *)
    change (esc [] ++ 34%N :: c :: rest) with (QS 1 ++ c :: rest). rewrite app_assoc, QS_app.
    rewrite (scan_run _ _ _ _ _ Hc), odd_double_S by lia.
    now rewrite rev_app_distr, rev_QS, <- QS_app.
  - destruct (isq x) eqn:Ex.
    + (* a quote of the label: its doubled form joins the run *)
      apply N.eqb_eq in Ex. subst x. change (esc (34%N :: l)) with (QS 2 ++ esc l).
      rewrite <- (app_assoc (QS 2)), !(app_assoc (QS (2 * j))), QS_app.
      replace (2 * j + 2)%nat with (2 * S j)%nat by lia.
      rewrite <- !app_assoc. apply IH; [exact Hc|simpl in Hf; lia].
    + rewrite (esc_nonq _ _ Ex). cbn [app].
      pose proof (IH 0%nat) as IH0. change (QS (2 * 0)) with (@nil N) in IH0. cbn [app] in IH0.
      destruct j as [|j].
      * change (QS (2 * 0)) with (@nil N). cbn [app]. rewrite (scan_nonq _ _ _ _ Ex), IH0 by (trivial; simpl in Hf; lia).
        cbn [rev]. now rewrite <- app_assoc.
      * (* an even run ends here and the scan goes on *)
        rewrite (scan_run _ _ _ _ _ Ex), odd_double by lia.
        destruct f as [|f]; [simpl in Hf; lia|].
        rewrite (scan_nonq _ _ _ _ Ex), IH0 by (trivial; simpl in Hf; lia).
        cbn [rev]. now rewrite rev_app_distr, rev_QS, <- !app_assoc.
Qed.

Lemma scan_text_esc l fuel acc c rest : isq c = false -> (length l < fuel)%nat ->
  scan_text fuel (esc l ++ 34%N :: c :: rest) acc = Ok (rev acc ++ esc l ++ [34%N], c :: rest).
Proof. intros Hc Hf. apply (scan_esc_run l 0); [exact Hc|lia]. Qed.

(* drop_last is the library's removelast *)
Lemma drop_last_app_single (s : text) x : drop_last (s ++ [x]) = s.
Proof. exact (removelast_last s x). Qed.

Lemma take_line_app line rest :
  forallb (fun c => negb (c =? 10)%N) line = true -> take_line (line ++ 10%N :: rest) = Some (line, rest).
Proof.
  induction line as [|c line IH]; simpl; intro H; [reflexivity|].
  apply andb_prop in H as [H1 H2]. apply negb_true_iff in H1. rewrite H1, (IH H2). reflexivity.
Qed.

Lemma take_line_len : forall s l r, take_line s = Some (l, r) -> (length r < length s)%nat.
Proof.
  induction s as [|c s IH]; intros l r H; [discriminate|]. cbn [take_line] in H.
  destruct (c =? 10)%N; [injection H as _ <-; simpl; lia|].
  destruct (take_line s) as [[l' r']|] eqn:E; [|discriminate]. injection H as _ <-.
  specialize (IH _ _ eq_refl). simpl. lia.
Qed.

Lemma split_nl_line line rest :
  forallb (fun c => negb (c =? 10)%N) line = true -> split_nl (line ++ 10%N :: rest) = line :: split_nl rest.
Proof.
  induction line as [|c line IH]; simpl; intro H; [reflexivity|].
  apply andb_prop in H as [H1 H2]. apply negb_true_iff in H1. now rewrite H1, (IH H2).
Qed.

Lemma split_on_line sep line rest : forallb (fun c => negb (c =? sep)%N) line = true ->
  split_on sep (line ++ sep :: rest) = line :: split_on sep rest.
Proof.
  induction line as [|c line IH]; intro H.
  - cbn [app split_on]. now rewrite N.eqb_refl.
  - cbn [forallb] in H. apply andb_prop in H as [Hc Hl]. apply negb_true_iff in Hc.
    cbn [app split_on]. rewrite Hc, (IH Hl). reflexivity.
Qed.

Lemma split_on_none sep l : forallb (fun c => negb (c =? sep)%N) l = true -> split_on sep l = [l].
Proof.
  induction l as [|c l IH]; intro H; [reflexivity|]. cbn [forallb] in H. apply andb_prop in H as [Hc Hl].
  apply negb_true_iff in Hc. cbn [split_on]. now rewrite Hc, (IH Hl).
Qed.

Lemma nat_to_text_fuel_digits fuel : forall n acc,
  forallb isdigit acc = true -> forallb isdigit (nat_to_text_fuel fuel n acc) = true.
Proof.
  induction fuel as [|f IH]; intros n acc A; cbn [nat_to_text_fuel]; [exact A|].
  assert (forallb isdigit (digit (n mod 10) :: acc) = true) as A'.
  { cbn [forallb]. rewrite A, andb_true_r. pose proof (Nat.mod_upper_bound n 10). unfold digit, isdigit. lia. }
  destruct (n / 10 =? 0)%nat; [exact A'|apply IH, A'].
Qed.

Lemma nat_to_text_digits n : forallb isdigit (nat_to_text n) = true.
Proof. apply nat_to_text_fuel_digits. reflexivity. Qed.

Lemma nat_to_text_fuel_ne fuel : forall n acc, acc <> [] -> nat_to_text_fuel fuel n acc <> [].
Proof.
  induction fuel as [|f IH]; intros n acc A; cbn [nat_to_text_fuel]; [exact A|].
  destruct (n / 10 =? 0)%nat; [|apply IH]; discriminate.
Qed.

Lemma nat_to_text_ne n : nat_to_text n <> [].
Proof. unfold nat_to_text. cbn [nat_to_text_fuel]. destruct (n / 10 =? 0)%nat; [|apply nat_to_text_fuel_ne]; discriminate. Qed.

(* _fetchTextRow on a written label or name: returns the (stripped) text and the
   position after the end of the line, for EVERY label *)
Theorem fetch_text_row_quoted l rest :
  fetch_text_row (quoted l ++ 10%N :: rest) = Ok (strip l, rest).
Proof.
  unfold fetch_text_row, quoted, Q1. simpl app.
  rewrite <- app_assoc. simpl app.
  rewrite scan_text_esc; [|reflexivity|rewrite !app_length; simpl; pose proof (esc_length l); lia].
  simpl bind. cbn [rev app tl].
  rewrite drop_last_app_single, strip_esc, unesc_esc. simpl. reflexivity.
Qed.

Definition plain_tok (t : text) : bool :=
  match t with [] => false | _ => forallb (fun c => negb (isspace c) && negb (isq c)) t end.

Lemma lstrip_nospace t : match t with c :: _ => isspace c = false | [] => True end -> lstrip t = t.
Proof. apply lstrip_noop. Qed.

Lemma strip_plain t : forallb (fun c => negb (isspace c) && negb (isq c)) t = true -> strip t = t.
Proof.
  intro H. unfold strip, rstrip.
  assert (forall u, forallb (fun c => negb (isspace c) && negb (isq c)) u = true -> lstrip u = u) as L.
  { intros [|c u] Hu; [reflexivity|]. cbn [forallb] in Hu. apply andb_prop in Hu as [Hc _].
    apply andb_prop in Hc as [Hc _]. apply negb_true_iff in Hc. cbn [lstrip]. now rewrite Hc. }
  rewrite (L t H). rewrite L; [apply rev_involutive|].
  apply forallb_forall. intros x Hx. apply in_rev in Hx. rewrite forallb_forall in H. now apply H.
Qed.

Theorem fetch_row_plain t rest : plain_tok t = true -> fetch_row (t ++ 10%N :: rest) = Ok (t, rest).
Proof.
  intro H. unfold plain_tok in H. destruct t as [|c0 t']; [discriminate|].
  unfold fetch_row. rewrite take_line_app.
  - rewrite (strip_plain _ H).
    destruct (last_opt (c0 :: t')) as [cl|] eqn:EL.
    + pose proof H as H0. cbn [forallb] in H0. apply andb_prop in H0 as [Hc Ht]. apply andb_prop in Hc as [_ Hq].
      apply negb_true_iff in Hq. rewrite Hq. cbn [andb]. rewrite (strip_plain _ H). reflexivity.
    + exfalso. exact (last_opt_cons _ _ EL).
  - apply forallb_forall. intros x Hx. rewrite forallb_forall in H. specialize (H x Hx).
    apply andb_prop in H as [Hs _]. apply negb_true_iff in Hs. apply negb_true_iff.
    destruct (x =? 10)%N eqn:E; [|reflexivity]. apply N.eqb_eq in E. subst. discriminate.
Qed.

Definition rd_entry (tab : numtab) (e : dentry) : rentry :=
  match e with
  | DI s e' l => RI (num_str (lookup tab s)) (num_str (lookup tab e')) (strip l)
  | DP t l => RP (num_str (lookup tab t)) (strip l)
  end.

Definition times_plain (tab : numtab) (e : dentry) : bool :=
  match e with
  | DI s e' _ => plain_tok (num_str (lookup tab s)) && plain_tok (num_str (lookup tab e'))
  | DP t _ => plain_tok (num_str (lookup tab t))
  end.

Definition is_DIb (e : dentry) : bool := match e with DI _ _ _ => true | DP _ _ => false end.

Lemma fetch_row_nil : fetch_row [] = Err PyError.
Proof. reflexivity. Qed.

Theorem short_intervals_printed tab ents : forall fuel,
  forallb is_DIb ents = true -> forallb (times_plain tab) ents = true -> (length ents < fuel)%nat ->
  short_intervals fuel (flat_map (short_entry tab) ents) = map (rd_entry tab) ents.
Proof.
  induction ents as [|e ents IH]; intros fuel HD HT HF.
  - destruct fuel; [simpl in HF; lia|]. reflexivity.
  - destruct fuel as [|f]; [simpl in HF; lia|].
    cbn [forallb] in HD, HT. apply andb_prop in HD as [HD1 HD2]. apply andb_prop in HT as [HT1 HT2].
    destruct e as [s e' l|]; [|discriminate]. cbn [times_plain] in HT1. apply andb_prop in HT1 as [P1 P2].
    cbn [flat_map short_entry]. unfold NL1. rewrite <- !app_assoc. cbn [app].
    cbn [short_intervals]. rewrite (fetch_row_plain _ _ P1), (fetch_row_plain _ _ P2).
    rewrite fetch_text_row_quoted. rewrite strip_idem. cbn [map rd_entry]. f_equal.
    apply IH; auto. simpl in HF. lia.
Qed.

Theorem short_points_printed tab ents : forall fuel,
  forallb (fun e => negb (is_DIb e)) ents = true -> forallb (times_plain tab) ents = true -> (length ents < fuel)%nat ->
  short_points fuel (flat_map (short_entry tab) ents) = map (rd_entry tab) ents.
Proof.
  induction ents as [|e ents IH]; intros fuel HD HT HF.
  - destruct fuel; [simpl in HF; lia|]. reflexivity.
  - destruct fuel as [|f]; [simpl in HF; lia|].
    cbn [forallb] in HD, HT. apply andb_prop in HD as [HD1 HD2]. apply andb_prop in HT as [HT1 HT2].
    destruct e as [|t l]; [discriminate|]. cbn [times_plain] in HT1.
    cbn [flat_map short_entry]. unfold NL1. rewrite <- !app_assoc. cbn [app].
    cbn [short_points]. rewrite (fetch_row_plain _ _ HT1).
    rewrite fetch_text_row_quoted. rewrite strip_idem. cbn [map rd_entry]. f_equal.
    apply IH; auto. simpl in HF. lia.
Qed.

Lemma quoted_group_tail dotall tail : forall acc best,
  forallb (fun c => negb (isq c)) tail = true ->
  quoted_group dotall tail acc best = best.
Proof.
  induction tail as [|c tail IH]; intros acc best H; [reflexivity|].
  cbn [forallb] in H. apply andb_prop in H as [Hc Ht]. apply negb_true_iff in Hc.
  cbn [quoted_group]. destruct ((c =? 10)%N && negb dotall); [reflexivity|].
  rewrite Hc. cbn [andb]. apply IH, Ht.
Qed.

(* text = "<body>" <tail>: the group is the body when the tail holds no quote and is white space
   up to its line end; without DOTALL the body must not contain a newline *)
Lemma quoted_group_closing dotall body tail : forall acc best,
  forallb (fun c => negb ((c =? 10)%N && negb dotall)) body = true ->
  forallb (fun c => negb (isq c)) tail = true -> ws_to_eol tail = true ->
  quoted_group dotall (body ++ 34%N :: tail) acc best = Some (rev acc ++ body).
Proof.
  induction body as [|c body IH]; intros acc best HB HT HW.
  - cbn [app quoted_group]. change (34 =? 10)%N with false. change (isq 34%N) with true. rewrite HW. cbn [andb].
    rewrite quoted_group_tail by exact HT. now rewrite app_nil_r.
  - cbn [forallb] in HB. apply andb_prop in HB as [Hc HB]. apply negb_true_iff in Hc.
    cbn [app quoted_group]. rewrite Hc, IH by assumption. cbn [rev]. now rewrite <- app_assoc.
Qed.

(* body may contain anything (quotes, newlines) under DOTALL *)
Theorem quoted_group_body body tail : forall acc best,
  forallb (fun c => negb (isq c)) tail = true -> ws_to_eol tail = true ->
  quoted_group true (body ++ 34%N :: tail) acc best = Some (rev acc ++ body).
Proof.
  intros acc best. apply quoted_group_closing. apply forallb_forall. intros c _. now rewrite andb_false_r.
Qed.

(* single-line variant used for tier names: body without newline *)
Theorem quoted_group_line body tail : forall acc best,
  forallb (fun c => negb (c =? 10)%N) body = true ->
  forallb (fun c => negb (isq c)) tail = true -> ws_to_eol tail = true ->
  quoted_group false (body ++ 34%N :: tail) acc best = Some (rev acc ++ body).
Proof.
  intros acc best HB. apply quoted_group_closing. rewrite forallb_forall in *. intros c Hc. rewrite andb_true_r. exact (HB c Hc).
Qed.

(* hence: the text field of a written interval is read back as the label, for every label *)
Theorem long_text_field_roundtrip l tail :
  forallb (fun c => negb (isq c)) tail = true -> ws_to_eol tail = true ->
  match quoted_group true (esc l ++ 34%N :: tail) [] None with
  | Some g => unesc (strip g) = strip l
  | None => False
  end.
Proof.
  intros HT HW. rewrite (quoted_group_body _ _ [] None HT HW). cbn [rev app].
  rewrite strip_esc. apply unesc_esc.
Qed.
