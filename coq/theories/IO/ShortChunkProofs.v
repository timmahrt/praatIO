(* IO/ShortChunkProofs.v -- the keyword chunking of the short reader is proved, it is not a hypothesis:
   when no name or label contains one of the two class words, cutting the written text at
   "IntervalTier" / "TextTier" (in quotes) finds exactly the header and the tier blocks. *)
From Coq Require Import String.
From PraatIO Require Import IO.IoModel IO.CodecProofs IO.CrlfProofs IO.ShortFileProofs.
Open Scope Z_scope.

Definition CORE_I : text := T "IntervalTier".
Definition CORE_P : text := T "TextTier".
Definition kwfree (l : text) : bool := negb (has_sub CORE_I l) && negb (has_sub CORE_P l).

(* the reader's scan with exactly the fuel it starts with, one more than the text is long: each step shortens both
   by one, so no step needs a lemma about spare fuel *)
Definition SB (s cur : text) (k : option bool) (acc : list (option bool * text)) :=
  short_blocks (S (length s)) s cur k acc.

Lemma SB_nil cur k acc : SB [] cur k acc = rev ((k, rev cur) :: acc).
Proof. reflexivity. Qed.

Lemma short_blocks_cons f c s' cur k acc :
  short_blocks (S f) (c :: s') cur k acc =
  (if is_prefix QINT (c :: s') then short_blocks f s' [c] (Some true) ((k, rev cur) :: acc)
   else if is_prefix QPT (c :: s') then short_blocks f s' [c] (Some false) ((k, rev cur) :: acc)
   else short_blocks f s' (c :: cur) k acc).
Proof. reflexivity. Qed.

Definition cleanp (p : text) : Prop := nocc QINT p /\ nocc QPT p.

Lemma cleanp_nil : cleanp [].
Proof. split; apply nostart_nil. Qed.

Lemma cleanp_app p q : cleanp p -> cleanp q -> cleanp (p ++ q).
Proof. intros [A1 B1] [A2 B2]. split; now apply nostart_app. Qed.

Lemma cleanp_closed p : noccb QINT p && noccb QPT p = true -> cleanp p.
Proof. intro H. apply andb_prop in H as [A B]. split; now apply noccb_sound. Qed.

Lemma SB_clean p : forall r cur k acc, cleanp p -> SB (p ++ r) cur k acc = SB r (rev p ++ cur) k acc.
Proof.
  induction p as [|c p IH]; intros r cur k acc [HI HP]; [reflexivity|].
  unfold SB. cbn [app length]. rewrite short_blocks_cons.
  rewrite (nostart_head _ _ c p r HI), (nostart_head _ _ c p r HP). fold (SB (p ++ r) (c :: cur) k acc).
  rewrite IH by (split; eapply nostart_tail; eassumption). cbn [rev]. now rewrite <- app_assoc.
Qed.

(* the class keywords without their opening quote: the scan goes on after that quote *)
Definition TLI : text := tl QINT.
Definition TLP : text := tl QPT.

Lemma SB_cut (isint : bool) body r cur k acc :
  SB (34%N :: ((if isint then TLI else TLP) ++ body) ++ r) cur k acc
  = SB (((if isint then TLI else TLP) ++ body) ++ r) [34%N] (Some isint) ((k, rev cur) :: acc).
Proof.
  unfold SB. cbn [length]. rewrite short_blocks_cons.
  destruct isint; rewrite <- app_assoc; reflexivity.
Qed.

Lemma contains_quoted_core core X : contains (34%N :: core ++ [34%N]) X = true -> contains core X = true.
Proof.
  intro H. apply contains_spec in H as (a & b & ->). apply contains_spec. exists (a ++ [34%N]), (34%N :: b).
  rewrite <- !app_assoc. cbn [app]. f_equal. f_equal. now rewrite <- app_assoc.
Qed.

Lemma is_prefix_esc w : forallb (fun c => negb (isq c)) w = true ->
  forall l r, is_prefix w (esc l ++ 34%N :: r) = true -> is_prefix w l = true.
Proof.
  induction w as [|x w IH]; intros Q l r H; [reflexivity|].
  cbn [forallb] in Q. apply andb_prop in Q as [Qx Q]. apply negb_true_iff in Qx.
  assert (forall t, is_prefix (x :: w) (34%N :: t) = false) as K by (intro t; cbn [is_prefix]; unfold isq in Qx; now rewrite Qx).
  destruct l as [|c l]; [cbn [esc app] in H; now rewrite K in H|]. cbn [esc] in H. destruct (c =? 34)%N.
  - cbn [app] in H. now rewrite K in H.
  - cbn [app is_prefix] in *. apply andb_prop in H as [E1 H]. rewrite E1. exact (IH Q l r H).
Qed.

(* a quote-free word cannot reach over the closing quote of a written string, nor arise from the doubling *)
Lemma nocc_quoted w l : w <> [] -> forallb (fun c => negb (isq c)) w = true -> contains w l = false ->
  nocc w (Q1 ++ esc l ++ Q1).
Proof.
  intros NE Q H.
  assert (forall t, is_prefix w (34%N :: t) = false) as K.
  { destruct w as [|x w']; [congruence|]. cbn [forallb] in Q. apply andb_prop in Q as [Qx _]. apply negb_true_iff in Qx.
    intro t. cbn [is_prefix]. unfold isq in Qx. now rewrite Qx. }
  apply nostart_cons; [intro r; apply K|].
  induction l as [|c l IH]; cbn [esc app]; [apply nostart_cons; [intro; apply K|apply nostart_nil]|].
  cbn [contains] in H. apply orb_false_elim in H as [H1 H2]. destruct (c =? 34)%N eqn:E; cbn [app].
  - apply nostart_cons; [intro; apply K|]. apply nostart_cons; [intro; apply K|]. exact (IH H2).
  - apply nostart_cons; [|exact (IH H2)]. intro r. rewrite <- app_assoc.
    destruct (is_prefix w (c :: esc l ++ Q1 ++ r)) eqn:P; [|reflexivity].
    rewrite (is_prefix_esc w Q (c :: l) r) in H1; [discriminate|]. cbn [esc]. now rewrite E.
Qed.

(* a written string on its line: the keywords hold no newline *)
Lemma quoted_line_clean l : kwfree l = true -> cleanp (quoted l ++ NL1).
Proof.
  unfold kwfree. intro H. apply andb_prop in H as [HI HP]. apply negb_true_iff in HI, HP.
  assert (forall core, core <> [] -> forallb (fun c => negb (isq c)) core = true -> has_sub core l = false ->
            contains (34%N :: core ++ [34%N]) (quoted l) = false) as G.
  { intros core NE Q HL. destruct (contains (34%N :: core ++ [34%N]) (quoted l)) eqn:E; [|reflexivity].
    apply contains_quoted_core in E. unfold quoted in E. now rewrite (nocc_contains core _ NE (nocc_quoted core l NE Q HL)) in E. }
  split; (apply nocc_sep; [reflexivity|]).
  - apply (G CORE_I); [discriminate|reflexivity|exact HI].
  - apply (G CORE_P); [discriminate|reflexivity|exact HP].
Qed.

(* a number on its line: no quote *)
Lemma num_line_clean t : plain_tok t = true -> cleanp (t ++ NL1).
Proof.
  intro P. unfold plain_tok in P. destruct t as [|c t]; [discriminate|].
  assert (forallb (fun x => negb (isq x)) ((c :: t) ++ NL1) = true) as Q.
  { rewrite forallb_app, andb_true_iff. split; [|reflexivity]. revert P. apply forallb_impl.
    intros x H. now apply andb_prop in H as [_ ?]. }
  split; (apply (nocc_class (fun x => negb (isq x))); [reflexivity|exact Q]).
Qed.

Definition entry_free (e : dentry) : bool := match e with DI _ _ l | DP _ l => kwfree l end.

Lemma entry_clean tab e : times_plain tab e = true -> entry_free e = true -> cleanp (short_entry tab e).
Proof.
  intros TP EF. destruct e as [s e' l|t l]; cbn [short_entry times_plain entry_free] in *.
  - apply andb_prop in TP as [P1 P2].
    rewrite (app_assoc (num_str (lookup tab s))). apply cleanp_app; [apply num_line_clean, P1|].
    rewrite (app_assoc (num_str (lookup tab e'))). apply cleanp_app; [apply num_line_clean, P2|].
    apply quoted_line_clean, EF.
  - rewrite (app_assoc (num_str (lookup tab t))). apply cleanp_app; [apply num_line_clean, TP|]. apply quoted_line_clean, EF.
Qed.

Lemma entries_clean tab ents : forallb (times_plain tab) ents = true -> forallb entry_free ents = true ->
  cleanp (flat_map (short_entry tab) ents).
Proof.
  induction ents as [|e ents IH]; intros TP EF; [exact cleanp_nil|].
  cbn [forallb] in TP, EF. apply andb_prop in TP as [T1 TP]. apply andb_prop in EF as [E1 EF].
  cbn [flat_map]. apply cleanp_app; [apply entry_clean; assumption|apply IH; assumption].
Qed.

Definition tier_free (t : dtier) : bool := kwfree (d_name t) && forallb entry_free (d_ents t).

Lemma short_tier_shape tab t : tier_ok tab t = true -> tier_free t = true ->
  exists body, short_tier tab t = 34%N :: (if d_isint t then TLI else TLP) ++ body
               /\ cleanp ((if d_isint t then TLI else TLP) ++ body).
Proof.
  intros TK TF. unfold tier_ok in TK. apply andb_prop in TK as [TK _]. apply andb_prop in TK as [TK HT].
  apply andb_prop in TK as [P1 P2]. unfold tier_free in TF. apply andb_prop in TF as [FN FE].
  exists (NL1 ++ quoted (d_name t) ++ NL1 ++ num_str (lookup tab (d_xmin t)) ++ NL1 ++ num_str (lookup tab (d_xmax t)) ++ NL1
          ++ nat_to_text (length (d_ents t)) ++ NL1 ++ flat_map (short_entry tab) (d_ents t)).
  split.
  - unfold short_tier. destruct (d_isint t); reflexivity.
  - rewrite app_assoc. apply cleanp_app.
    + destruct (d_isint t); apply cleanp_closed; reflexivity.
    + rewrite (app_assoc (quoted _)). apply cleanp_app; [apply quoted_line_clean, FN|].
      rewrite (app_assoc (num_str _)). apply cleanp_app; [apply num_line_clean, P1|].
      rewrite (app_assoc (num_str _)). apply cleanp_app; [apply num_line_clean, P2|].
      rewrite (app_assoc (nat_to_text _)). apply cleanp_app; [apply num_line_clean, nat_to_text_plain|].
      apply entries_clean; assumption.
Qed.

Lemma SB_tiers tab : forall tiers cur k acc,
  forallb (tier_ok tab) tiers = true -> forallb tier_free tiers = true ->
  SB (flat_map (short_tier tab) tiers) cur k acc
  = rev acc ++ (k, rev cur) :: map (fun t => (Some (d_isint t), short_tier tab t)) tiers.
Proof.
  induction tiers as [|t tiers IH]; intros cur k acc TK TF.
  - cbn [flat_map map]. rewrite SB_nil. reflexivity.
  - cbn [forallb] in TK, TF. apply andb_prop in TK as [K1 TK]. apply andb_prop in TF as [F1 TF].
    destruct (short_tier_shape tab t K1 F1) as (body & E & C).
    cbn [flat_map map]. rewrite E at 1.
    change ((34%N :: (if d_isint t then TLI else TLP) ++ body) ++ flat_map (short_tier tab) tiers)
      with (34%N :: ((if d_isint t then TLI else TLP) ++ body) ++ flat_map (short_tier tab) tiers).
    rewrite SB_cut, (SB_clean _ _ _ _ _ C). rewrite (IH _ _ _ TK TF). cbn [rev].
    rewrite <- app_assoc. cbn [app]. f_equal. f_equal. f_equal.
    rewrite rev_app_distr, rev_involutive. cbn [rev app]. now rewrite E.
Qed.

Lemma header_clean tab g :
  plain_tok (num_str (lookup tab (dg_xmin g))) = true -> plain_tok (num_str (lookup tab (dg_xmax g))) = true ->
  cleanp (short_header tab g).
Proof.
  intros A B. unfold short_header.
  apply cleanp_app; [apply cleanp_closed; reflexivity|].
  rewrite (app_assoc (num_str _)). apply cleanp_app; [apply num_line_clean, A|].
  rewrite (app_assoc (num_str _)). apply cleanp_app; [apply num_line_clean, B|].
  rewrite (app_assoc (T "<exists>")). apply cleanp_app; [apply cleanp_closed; reflexivity|].
  apply num_line_clean, nat_to_text_plain.
Qed.

(* the side condition of the whole-file theorem holds whenever no name or label contains a class word *)
Theorem chunk_ok_free tab g :
  plain_tok (num_str (lookup tab (dg_xmin g))) = true -> plain_tok (num_str (lookup tab (dg_xmax g))) = true ->
  forallb (tier_ok tab) (dg_tiers g) = true -> forallb tier_free (dg_tiers g) = true ->
  chunk_ok tab g = true.
Proof.
  intros A B TK TF. apply chunk_ok_spec.
  assert (print_short tab g = short_header tab g ++ flat_map (short_tier tab) (dg_tiers g)) as E.
  { unfold print_short, short_header. now rewrite <- !app_assoc. }
  rewrite E. change (short_blocks (S (length (short_header tab g ++ flat_map (short_tier tab) (dg_tiers g))))
                                  (short_header tab g ++ flat_map (short_tier tab) (dg_tiers g)) [] None [])
    with (SB (short_header tab g ++ flat_map (short_tier tab) (dg_tiers g)) [] None []).
  rewrite (SB_clean _ _ _ _ _ (header_clean tab g A B)), (SB_tiers tab _ _ _ _ TK TF).
  cbn [rev app]. now rewrite app_nil_r, rev_involutive.
Qed.
