(* IO/LongFileProofs.v -- the long text form (C01): what the regex reader's scanners find on a field
   line `<indent>keyword = value<blanks>`, whatever the other lines hold; the blocks a file is cut
   into (LongChunkProofs.v shows that print_long writes them); and the decidable side condition of the
   whole-file round trip: cutting the text at `item [`, `intervals [`, `points [` finds exactly the
   writer's blocks. *)
From Coq Require Import String.
From PraatIO Require Import IO.IoModel IO.CodecProofs IO.CrlfProofs IO.ShortFileProofs.
Open Scope Z_scope.

Definition EQ : text := [32; 61; 32]%N.
Definition TAB2 : text := TAB ++ TAB.
Definition TAB3 : text := TAB ++ TAB ++ TAB.
Definition allsp (l : text) : bool := forallb (fun c => (c =? 32)%N) l.

Definition numchar (c : N) : bool :=
  (isdigit_dot c || (c =? 101) || (c =? 69) || (c =? 43) || (c =? 45))%N.

(* digits and dots, then an optional exponent, nothing else *)
Definition numshape (t : text) : bool :=
  forallb numchar t &&
  match take_while isdigit_dot t with
  | ([], _) => false
  | (_, rest) => match exp_part rest with (_, []) => true | _ => false end
  end.

(* a character that neither starts nor continues an exponent: exp_part stops in front of it (exp_part_app) *)
Definition plainc (c : N) : bool :=
  (negb ((c =? 101) || (c =? 69)) && negb ((c =? 45) || (c =? 43)) && negb (isdigit c))%N.

Lemma exp_part_app s c r : plainc c = true ->
  exp_part (s ++ c :: r) = (fst (exp_part s), snd (exp_part s) ++ c :: r).
Proof.
  intro P. unfold plainc in P. apply andb_prop in P as [P Pd]. apply andb_prop in P as [Pe Ps].
  apply negb_true_iff in Pe, Ps, Pd.
  assert (take_while isdigit (c :: r) = ([], c :: r)) as TWc by (cbn [take_while]; now rewrite Pd).
  destruct s as [|e s].
  - cbn [app exp_part]. now rewrite Pe.
  - cbn [app exp_part]. destruct ((e =? 101) || (e =? 69))%N; [|reflexivity].
    destruct s as [|d s'].
    + cbn [app]. rewrite Ps. rewrite TWc. reflexivity.
    + cbn [app]. destruct ((d =? 45) || (d =? 43))%N.
      * rewrite (tw_app isdigit s' (c :: r)) by exact Pd.
        destruct (take_while isdigit s') as [dgs r2]. cbn [fst snd]. destruct dgs; reflexivity.
      * change (d :: s' ++ c :: r) with ((d :: s') ++ c :: r).
        rewrite (tw_app isdigit (d :: s') (c :: r)) by exact Pd.
        destruct (take_while isdigit (d :: s')) as [dgs r2]. cbn [fst snd]. destruct dgs; reflexivity.
Qed.

Lemma exp_split s : s = fst (exp_part s) ++ snd (exp_part s).
Proof.
  destruct s as [|e s]; [reflexivity|]. cbn [exp_part]. destruct ((e =? 101) || (e =? 69))%N; [|reflexivity].
  destruct s as [|d s'].
  - reflexivity.
  - destruct ((d =? 45) || (d =? 43))%N.
    + pose proof (tw_split isdigit s') as SP. destruct (take_while isdigit s') as [dgs r2]. cbn [fst snd] in SP.
      destruct dgs as [|g dgs]; [reflexivity|]. cbn [fst snd app]. f_equal. f_equal. exact SP.
    + pose proof (tw_split isdigit (d :: s')) as SP. destruct (take_while isdigit (d :: s')) as [dgs r2]. cbn [fst snd] in SP.
      destruct dgs as [|g dgs]; [reflexivity|]. cbn [fst snd app]. f_equal. exact SP.
Qed.

Definition strip_minus (s : text) : text := match s with 45%N :: r => r | _ => s end.

Lemma strip_minus_ne c s : c <> 45%N -> strip_minus (c :: s) = c :: s.
Proof.
  intro H. unfold strip_minus. destruct c as [|p]; [reflexivity|].
  do 6 (try (destruct p as [p|p|]; try reflexivity)). congruence.
Qed.

Lemma num_group_unfold neg s :
  num_group neg s =
  (let s0 := if neg then strip_minus s else s in
   let '(run, rest) := take_while isdigit_dot s0 in
   match run with
   | [] => None
   | _ => let '(ex, rest') := exp_part rest in if ws_to_eol rest' then Some (run ++ ex) else None
   end).
Proof. reflexivity. Qed.

Lemma ws_to_eol_sp tr rest : allsp tr = true -> ws_to_eol (tr ++ 10%N :: rest) = true.
Proof.
  induction tr as [|c tr IH]; intro H; [reflexivity|]. unfold allsp in H. cbn [forallb] in H.
  apply andb_prop in H as [Hc Ht]. apply N.eqb_eq in Hc. subst c. cbn [app ws_to_eol].
  change (32 =? 10)%N with false. change (isspace 32%N) with true. cbn iota. apply IH, Ht.
Qed.

Lemma head_plain tr rest : allsp tr = true ->
  match tr ++ 10%N :: rest with c :: _ => isdigit_dot c = false /\ plainc c = true /\ isdigit c = false | [] => False end.
Proof.
  destruct tr as [|c tr]; intro H; [cbn [app]; repeat split; reflexivity|].
  unfold allsp in H. cbn [forallb] in H. apply andb_prop in H as [Hc _]. apply N.eqb_eq in Hc. subst c.
  cbn [app]. repeat split; reflexivity.
Qed.

Theorem num_group_tok neg t tr rest : numshape t = true -> allsp tr = true ->
  num_group neg (t ++ tr ++ 10%N :: rest) = Some t.
Proof.
  intros H HT. unfold numshape in H. apply andb_prop in H as [_ H].
  pose proof (tw_split isdigit_dot t) as SP. pose proof (tw_all isdigit_dot t) as AL.
  destruct (take_while isdigit_dot t) as [run rest0] eqn:TW. cbn [fst snd] in *.
  destruct run as [|c0 run']; [discriminate|].
  pose proof (exp_split rest0) as ES.
  destruct (exp_part rest0) as [ex r'] eqn:EP. destruct r'; [|discriminate]. cbn [fst snd] in ES. rewrite app_nil_r in ES.
  cbn [forallb] in AL. apply andb_prop in AL as [A0 _].
  assert (c0 <> 45%N) as NE by (intro; subst; discriminate).
  pose proof (head_plain tr rest HT) as HP. pose proof (ws_to_eol_sp tr rest HT) as WS.
  destruct (tr ++ 10%N :: rest) as [|c r] eqn:ER; [contradiction|]. destruct HP as (P1 & P2 & P3).
  rewrite num_group_unfold.
  assert ((if neg then strip_minus (t ++ c :: r) else t ++ c :: r) = t ++ c :: r) as ->.
  { destruct neg; [|reflexivity]. rewrite SP. cbn [app]. apply strip_minus_ne, NE. }
  cbv zeta. rewrite (tw_app isdigit_dot t (c :: r)) by exact P1. rewrite TW. cbn [fst snd].
  rewrite (exp_part_app rest0 c r P2). rewrite EP. cbn [fst snd app]. rewrite WS.
  now rewrite SP, ES.
Qed.

Lemma ws_to_eol_quote a tail : nonl a = true -> ws_to_eol (a ++ 34%N :: tail) = false.
Proof.
  induction a as [|c a IH]; intro H.
  - reflexivity.
  - unfold nonl in H. cbn [forallb] in H. apply andb_prop in H as [Hc Ha]. apply negb_true_iff in Hc.
    cbn [app ws_to_eol]. rewrite Hc. destruct (isspace c); [apply IH, Ha|reflexivity].
Qed.

Lemma nonl_app a b : nonl (a ++ b) = nonl a && nonl b.
Proof. unfold nonl. apply forallb_app. Qed.

(* on a line that ends with a quote no number field matches: \s*$ meets the quote *)
Lemma num_group_quote_line neg a tail : nonl a = true -> num_group neg (a ++ 34%N :: tail) = None.
Proof.
  intro NL. rewrite num_group_unfold.
  assert (exists a', (if neg then strip_minus (a ++ 34%N :: tail) else a ++ 34%N :: tail) = a' ++ 34%N :: tail /\ nonl a' = true)
    as (a' & -> & NL').
  { destruct neg; [|now exists a]. destruct a as [|c a]; [exists []; split; reflexivity|].
    destruct (N.eq_dec c 45) as [->|NE].
    - exists a. split; [reflexivity|]. unfold nonl in *. cbn [forallb] in NL. now apply andb_prop in NL as [_ ?].
    - exists (c :: a). split; [|exact NL]. cbn [app]. apply strip_minus_ne, NE. }
  cbv zeta. rewrite (tw_app isdigit_dot a' (34%N :: tail)) by reflexivity.
  pose proof (tw_split isdigit_dot a') as SP.
  destruct (take_while isdigit_dot a') as [run b]. cbn [fst snd] in *.
  destruct run as [|c0 run']; [reflexivity|].
  rewrite (exp_part_app b 34%N tail) by reflexivity.
  pose proof (exp_split b) as ES. destruct (exp_part b) as [ex b']. cbn [fst snd] in *.
  assert (nonl b' = true) as NB.
  { rewrite SP, nonl_app in NL'. apply andb_prop in NL' as [_ NL']. rewrite ES, nonl_app in NL'. now apply andb_prop in NL' as [_ ?]. }
  now rewrite (ws_to_eol_quote b' tail NB).
Qed.

Lemma search_num_unfold kw neg s :
  search_num kw neg s =
  match match_kw_eq kw s with
  | Some r => match num_group neg r with
              | Some g => Some g
              | None => match s with _ :: s' => search_num kw neg s' | [] => None end
              end
  | None => match s with _ :: s' => search_num kw neg s' | [] => None end
  end.
Proof. destruct s; reflexivity. Qed.

Lemma search_quoted_unfold kw dotall s :
  search_quoted kw dotall s =
  match match_kw_eq kw s with
  | Some (34%N :: r) =>
      match quoted_group dotall r [] None with
      | Some g => Some g
      | None => match s with _ :: s' => search_quoted kw dotall s' | [] => None end
      end
  | _ => match s with _ :: s' => search_quoted kw dotall s' | [] => None end
  end.
Proof. destruct s; reflexivity. Qed.

Lemma match_kw_none kw s : is_prefix kw s = false -> match_kw_eq kw s = None.
Proof. unfold match_kw_eq. now intros ->. Qed.

(* a search for the keyword w walks over a piece in which w does not start *)
Definition skips {B} (w : text) (F : text -> B) : Prop := forall pre s, nocc w pre -> F (pre ++ s) = F s.

Lemma search_num_skips kw neg : skips kw (search_num kw neg).
Proof.
  intros pre s. induction pre as [|c pre IH]; intro H; [reflexivity|]. cbn [app].
  rewrite search_num_unfold, (match_kw_none _ _ (nostart_head _ _ c pre s H)). exact (IH (nostart_tail _ _ _ _ H)).
Qed.

Lemma search_quoted_skips kw d : skips kw (search_quoted kw d).
Proof.
  intros pre s. induction pre as [|c pre IH]; intro H; [reflexivity|]. cbn [app].
  rewrite search_quoted_unfold, (match_kw_none _ _ (nostart_head _ _ c pre s H)). exact (IH (nostart_tail _ _ _ _ H)).
Qed.

Lemma match_kw_hit kw r : match_kw_eq kw (kw ++ EQ ++ r) = Some r.
Proof.
  unfold match_kw_eq. rewrite is_prefix_app, skipn_app_exact. unfold EQ. cbn [app opt_sp_then].
  change (61 =? 61)%N with true. cbn iota. unfold opt_sp. reflexivity.
Qed.

Theorem search_quoted_hit_dotall kw body tail :
  forallb (fun c => negb (isq c)) tail = true -> ws_to_eol tail = true ->
  search_quoted kw true (kw ++ EQ ++ 34%N :: body ++ 34%N :: tail) = Some body.
Proof.
  intros HT HW. rewrite search_quoted_unfold, match_kw_hit.
  rewrite (quoted_group_body body tail [] None HT HW). reflexivity.
Qed.

Theorem search_quoted_hit_line kw body tail : nonl body = true ->
  forallb (fun c => negb (isq c)) tail = true -> ws_to_eol tail = true ->
  search_quoted kw false (kw ++ EQ ++ 34%N :: body ++ 34%N :: tail) = Some body.
Proof.
  intros HB HT HW. rewrite search_quoted_unfold, match_kw_hit.
  rewrite (quoted_group_line body tail [] None HB HT HW). reflexivity.
Qed.

Lemma opt_sp_then_cases lit q :
  opt_sp_then lit q =
  match q with
  | [] => None
  | c :: q' =>
      if (c =? 32)%N then
        match q' with
        | c2 :: r => if (c2 =? lit)%N then Some r else None
        | [] => if (32 =? lit)%N then Some [] else None
        end
      else if (c =? lit)%N then Some q' else None
  end.
Proof.
  unfold opt_sp_then. destruct q as [|c q']; [reflexivity|].
  destruct (N.eqb_spec c 32) as [->|NC].
  - destruct q'; reflexivity.
  - destruct c as [|p]; [reflexivity|]. do 6 (try (destruct p as [p|p|]; try reflexivity)). congruence.
Qed.

Lemma opt_sp_then_suffix lit q r : opt_sp_then lit q = Some r ->
  exists p, q = p ++ r /\ p <> [] /\ forallb (fun c => (c =? 32)%N || (c =? lit)%N) p = true.
Proof.
  rewrite opt_sp_then_cases. destruct q as [|c q']; [discriminate|]. destruct (c =? 32)%N eqn:E.
  - destruct q' as [|c2 q2].
    + destruct (32 =? lit)%N; [|discriminate]. intros [= <-]. exists [c]. cbn. now rewrite E.
    + destruct (c2 =? lit)%N eqn:E2; [|discriminate]. intros [= <-]. exists [c; c2]. cbn. now rewrite E, E2, orb_true_r.
  - destruct (c =? lit)%N eqn:E2; [|discriminate]. intros [= <-]. exists [c]. cbn. now rewrite E2, orb_true_r.
Qed.

Lemma opt_sp_suffix s : exists q, s = q ++ opt_sp s /\ allsp q = true.
Proof.
  destruct s as [|d s]; [now exists []|]. destruct (N.eqb_spec d 32) as [->|ND]; [now exists [32%N]|].
  exists []. split; [|reflexivity]. unfold opt_sp.
  destruct d as [|p]; [reflexivity|]. do 6 (try (destruct p as [p|p|]; try reflexivity)). congruence.
Qed.

Lemma match_kw_suffix kw s r : match_kw_eq kw s = Some r ->
  exists p, s = kw ++ p ++ r /\ forallb (fun c => (c =? 32)%N || (c =? 61)%N) p = true.
Proof.
  unfold match_kw_eq. destruct (is_prefix kw s) eqn:P; [|discriminate].
  apply is_prefix_spec in P as [s1 ->]. rewrite skipn_app_exact.
  destruct (opt_sp_then 61%N s1) as [r1|] eqn:E; [|discriminate]. intros [= <-].
  apply opt_sp_then_suffix in E as (p & -> & _ & Hp). destruct (opt_sp_suffix r1) as (q & Eq & Hq).
  exists (p ++ q). split; [now rewrite <- app_assoc, <- Eq|]. rewrite forallb_app, Hp. cbn [andb].
  revert Hq. apply forallb_impl. now intros c ->.
Qed.

Lemma prefix_before_quote (p a : text) tail r :
  forallb (fun c => negb (isq c)) p = true -> a ++ 34%N :: tail = p ++ r ->
  exists a', a = p ++ a' /\ r = a' ++ 34%N :: tail.
Proof.
  revert a. induction p as [|c p IH]; intros a NQ E.
  - exists a. split; [reflexivity|]. now rewrite E.
  - cbn [forallb] in NQ. apply andb_prop in NQ as [Nc Np]. apply negb_true_iff in Nc.
    destruct a as [|x a].
    + cbn [app] in E. injection E as E _. subst c. discriminate.
    + cbn [app] in E. injection E as -> E. destruct (IH a Np E) as (a' & -> & ->). now exists a'.
Qed.

(* inside a quoted single-line field no number field can match: what follows the keyword on
   that line ends with the closing quote *)
Lemma search_num_quoted_line kw neg a tail :
  forallb (fun c => negb (isq c)) kw = true -> nonl a = true ->
  search_num kw neg (a ++ 34%N :: tail) = search_num kw neg (34%N :: tail).
Proof.
  intros KQ. induction a as [|c a IH]; intro NL; [reflexivity|].
  assert (nonl a = true) as NLa by (unfold nonl in *; cbn [forallb] in NL; now apply andb_prop in NL as [_ ?]).
  cbn [app]. rewrite search_num_unfold.
  destruct (match_kw_eq kw (c :: a ++ 34%N :: tail)) as [r|] eqn:M; [|apply IH, NLa].
  apply match_kw_suffix in M as (p & E & P).
  change (c :: a ++ 34%N :: tail) with ((c :: a) ++ 34%N :: tail) in E. rewrite app_assoc in E.
  apply prefix_before_quote in E as (a' & Ea & ->).
  - rewrite num_group_quote_line; [apply IH, NLa|].
    rewrite Ea in NL. rewrite !nonl_app in NL. now apply andb_prop in NL as [_ ?].
  - rewrite forallb_app, KQ. cbn [andb]. apply forallb_forall. intros x Hx. rewrite forallb_forall in P.
    specialize (P x Hx). apply orb_prop in P as [P|P]; apply N.eqb_eq in P; subst; reflexivity.
Qed.

Definition idx (j : text) : bool := forallb isdigit j.

(* white space, the characters of numbers and indices (digits . e E + -), the quote, `]` and `:`;
   no keyword starts with one of these *)
Definition filler (c : N) : bool := (isspace c || numchar c || isq c || (c =? 93) || (c =? 58))%N.
Definition wordstart (w : text) : bool := match w with k :: _ => negb (filler k) | [] => false end.

Lemma nocc_filler (P : N -> bool) w p :
  (forall c, P c = true -> filler c = true) -> wordstart w = true -> forallb P p = true -> nocc w p.
Proof.
  intros I W. apply nocc_class. destruct w as [|k w']; [discriminate|]. apply negb_true_iff in W.
  destruct (P k) eqn:E; [|reflexivity]. apply I in E. cbn [wordstart] in W. congruence.
Qed.

Lemma nocc_ws w p : wordstart w = true -> forallb isspace p = true -> nocc w p.
Proof. apply nocc_filler. intros c H. unfold filler. now rewrite H. Qed.

Lemma nocc_sp w p : wordstart w = true -> allsp p = true -> nocc w p.
Proof. apply nocc_filler. intros c H. apply N.eqb_eq in H. now subst. Qed.

Lemma nocc_q w : wordstart w = true -> nocc w Q1.
Proof. intro W. now apply (nocc_filler isq w Q1); [intros c H; unfold filler; rewrite H, !orb_true_r| |]. Qed.

Lemma numshape_chars t : numshape t = true -> forallb numchar t = true.
Proof. unfold numshape. intro H. now apply andb_prop in H as [? _]. Qed.

Lemma nocc_num w t : wordstart w = true -> numshape t = true -> nocc w t.
Proof.
  intros W H. apply (nocc_filler numchar w t); [|exact W|exact (numshape_chars t H)].
  intros c E. unfold filler. now rewrite E, !orb_true_r.
Qed.

Lemma nocc_idx w j : wordstart w = true -> idx j = true -> nocc w j.
Proof.
  apply nocc_filler. intros c H. unfold filler, numchar, isdigit_dot. unfold isdigit in H. now rewrite H, !orb_true_r.
Qed.

(* a number field and a string field on their lines, with the text that follows:
   <ind>kw = N<tr>\n   and   <ind>kw = "body"<tr>\n *)
Definition numline (ind kw N tr rest : text) : text := ind ++ kw ++ EQ ++ N ++ tr ++ NL1 ++ rest.
Definition strline (ind kw body tr rest : text) : text := ind ++ kw ++ EQ ++ Q1 ++ body ++ Q1 ++ tr ++ NL1 ++ rest.

Lemma numline_app ind kw N tr rest r : numline ind kw N tr rest ++ r = numline ind kw N tr (rest ++ r).
Proof. unfold numline. now rewrite <- !app_assoc. Qed.

Lemma strline_app ind kw body tr rest r : strline ind kw body tr rest ++ r = strline ind kw body tr (rest ++ r).
Proof. unfold strline. now rewrite <- !app_assoc. Qed.

Lemma nocc_numline w ind kw N tr rest : wordstart w = true -> noccb w (kw ++ EQ) = true ->
  allsp ind = true -> numshape N = true -> allsp tr = true -> nocc w rest -> nocc w (numline ind kw N tr rest).
Proof.
  intros W K HI HN HT HR. unfold numline. rewrite (app_assoc kw EQ).
  apply nostart_app; [now apply nocc_sp|]. apply nostart_app; [now apply noccb_sound|].
  apply nostart_app; [now apply nocc_num|]. apply nostart_app; [now apply nocc_sp|].
  apply nostart_app; [now apply nocc_ws|exact HR].
Qed.

Lemma nocc_strline w ind kw body tr rest : wordstart w = true -> noccb w (kw ++ EQ) = true ->
  allsp ind = true -> nocc w (Q1 ++ body ++ Q1) -> allsp tr = true -> nocc w rest -> nocc w (strline ind kw body tr rest).
Proof.
  intros W K HI HB HT HR. unfold strline. rewrite (app_assoc kw EQ).
  apply nostart_app; [now apply nocc_sp|]. apply nostart_app; [now apply noccb_sound|].
  rewrite (app_assoc body), (app_assoc Q1). apply nostart_app; [exact HB|].
  apply nostart_app; [now apply nocc_sp|]. apply nostart_app; [now apply nocc_ws|exact HR].
Qed.

Lemma skips_numline {B w} {F : text -> B} (S : skips w F) ind kw N tr rest : wordstart w = true ->
  noccb w (kw ++ EQ) = true -> allsp ind = true -> numshape N = true -> allsp tr = true ->
  F (numline ind kw N tr rest) = F rest.
Proof.
  intros W K HI HN HT. rewrite <- (numline_app ind kw N tr [] rest : _ = numline ind kw N tr rest).
  apply S, nocc_numline; try assumption. apply nostart_nil.
Qed.

Lemma skips_strline {B w} {F : text -> B} (S : skips w F) ind kw body tr rest : wordstart w = true ->
  noccb w (kw ++ EQ) = true -> allsp ind = true -> nocc w (Q1 ++ body ++ Q1) -> allsp tr = true ->
  F (strline ind kw body tr rest) = F rest.
Proof.
  intros W K HI HB HT. rewrite <- (strline_app ind kw body tr [] rest : _ = strline ind kw body tr rest).
  apply S, nocc_strline; try assumption. apply nostart_nil.
Qed.

(* a number is not found on a string line, whatever its body holds: the line ends with a quote *)
Lemma search_num_skip_strline w neg ind kw body tr rest :
  wordstart w = true -> forallb (fun c => negb (isq c)) w = true -> noccb w (kw ++ EQ) = true ->
  allsp ind = true -> nonl body = true -> allsp tr = true ->
  search_num w neg (strline ind kw body tr rest) = search_num w neg rest.
Proof.
  intros W Q K HI HB HT. pose proof (search_num_skips w neg) as S. unfold strline.
  rewrite (S ind) by now apply nocc_sp. rewrite (app_assoc kw EQ), (S (kw ++ EQ)) by now apply noccb_sound.
  rewrite (S Q1) by now apply nocc_q.
  change (body ++ Q1 ++ tr ++ NL1 ++ rest) with (body ++ 34%N :: tr ++ NL1 ++ rest).
  rewrite search_num_quoted_line by assumption.
  change (34%N :: tr ++ NL1 ++ rest) with (Q1 ++ tr ++ NL1 ++ rest).
  rewrite (S Q1) by now apply nocc_q. rewrite (S tr) by now apply nocc_sp. now rewrite (S NL1) by now apply nocc_ws.
Qed.

Lemma search_num_numline kw neg ind N tr rest :
  wordstart kw = true -> allsp ind = true -> numshape N = true -> allsp tr = true ->
  search_num kw neg (numline ind kw N tr rest) = Some N.
Proof.
  intros W HI HN HT. unfold numline. rewrite (search_num_skips kw neg ind) by now apply nocc_sp.
  rewrite search_num_unfold, match_kw_hit. change (NL1 ++ rest) with (10%N :: rest). now rewrite num_group_tok.
Qed.

Lemma allsp_noq l : allsp l = true -> forallb (fun c => negb (isq c)) l = true.
Proof. apply forallb_impl. intros c H. apply N.eqb_eq in H. now subst. Qed.

(* the text of an entry (DOTALL): the last field of its block, only blanks may follow *)
Lemma search_quoted_strline kw ind body tr trail :
  wordstart kw = true -> allsp ind = true -> allsp tr = true -> allsp trail = true ->
  search_quoted kw true (strline ind kw body tr trail) = Some body.
Proof.
  intros W HI HT HL. unfold strline. rewrite (search_quoted_skips kw true ind) by now apply nocc_sp.
  apply search_quoted_hit_dotall.
  - change (NL1 ++ trail) with ([10%N] ++ trail). now rewrite !forallb_app, (allsp_noq _ HT), (allsp_noq _ HL).
  - exact (ws_to_eol_sp tr trail HT).
Qed.

Lemma ws_to_eol_cut a rest : ws_to_eol (a ++ 10%N :: rest) = ws_to_eol (a ++ [10%N]).
Proof. induction a as [|c a IH]; [reflexivity|]. cbn [app ws_to_eol]. now rewrite IH. Qed.

Lemma quoted_group_cut a rest : forall acc best,
  quoted_group false (a ++ 10%N :: rest) acc best = quoted_group false (a ++ [10%N]) acc best.
Proof. induction a as [|c a IH]; intros acc best; cbn [app quoted_group]; [reflexivity|]. now rewrite ws_to_eol_cut, IH. Qed.

(* a tier's name (not DOTALL): the group stops at the end of its line, what follows is irrelevant *)
Lemma search_quoted_strline_line kw ind body tr rest :
  wordstart kw = true -> allsp ind = true -> nonl body = true -> allsp tr = true ->
  search_quoted kw false (strline ind kw body tr rest) = Some body.
Proof.
  intros W HI HB HS. unfold strline. rewrite (search_quoted_skips kw false ind) by now apply nocc_sp.
  rewrite search_quoted_unfold, match_kw_hit. cbn [Q1 app].
  replace (body ++ 34%N :: tr ++ NL1 ++ rest) with ((body ++ 34%N :: tr) ++ 10%N :: rest) by now rewrite <- app_assoc.
  rewrite quoted_group_cut, <- app_assoc. cbn [app].
  rewrite (quoted_group_line body (tr ++ [10%N]) [] None HB); [reflexivity| |exact (ws_to_eol_sp tr [] HS)].
  now rewrite forallb_app, (allsp_noq _ HS).
Qed.

Definition ichunk (j N1 N2 lab : text) : text :=
  j ++ T "]:" ++ NL1 ++ TAB3 ++ T "xmin" ++ EQ ++ N1 ++ SPNL ++ TAB3 ++ T "xmax" ++ EQ ++ N2 ++ SPNL
    ++ TAB3 ++ T "text" ++ EQ ++ Q1 ++ esc lab ++ Q1 ++ SPNL.

Definition pchunk (j N1 lab : text) : text :=
  j ++ T "]:" ++ NL1 ++ TAB3 ++ T "number" ++ EQ ++ N1 ++ SPNL
    ++ TAB3 ++ T "mark" ++ EQ ++ Q1 ++ esc lab ++ Q1 ++ SPNL.

(* the head of a tier block: class, name, span, size line *)
Definition thead (j : text) (isint : bool) (name N1 N2 n : text) : text :=
  j ++ T "]:" ++ NL1
    ++ TAB2 ++ T "class" ++ EQ ++ Q1 ++ class_name isint ++ Q1 ++ SPNL
    ++ TAB2 ++ T "name" ++ EQ ++ Q1 ++ esc name ++ Q1 ++ SPNL
    ++ TAB2 ++ T "xmin" ++ EQ ++ N1 ++ SPNL
    ++ TAB2 ++ T "xmax" ++ EQ ++ N2 ++ SPNL
    ++ TAB2 ++ (if isint then T "intervals: size = " else T "points: size = ") ++ n ++ SPNL.

Lemma esc_nonl l : nonl l = true -> nonl (esc l) = true.
Proof.
  induction l as [|c l IH]; intro H; [reflexivity|]. unfold nonl in *. cbn [forallb] in H. apply andb_prop in H as [Hc Hl].
  cbn [esc]. destruct (c =? 34)%N eqn:E.
  - apply N.eqb_eq in E. subst. cbn [forallb]. change (negb (34 =? 10)%N) with true. cbn [andb]. apply IH, Hl.
  - cbn [forallb]. rewrite Hc. cbn [andb]. apply IH, Hl.
Qed.

Lemma numchar_plain c : numchar c = true -> negb (isspace c) && negb (isq c) = true.
Proof. unfold numchar, isdigit_dot, isspace, isq. lia. Qed.

Lemma numshape_plain t : numshape t = true -> plain_tok t = true.
Proof.
  intro H. pose proof (numshape_chars t H) as A. unfold plain_tok. destruct t as [|c t]; [discriminate H|].
  revert A. apply forallb_impl, numchar_plain.
Qed.

Lemma nat_to_text_idx n : idx (nat_to_text n) = true.
Proof. apply nat_to_text_digits. Qed.

(* act is exp followed by blanks only: re.split leaves the indentation of the next keyword's line at the end of
   the previous piece (see glue in LongChunkProofs.v) *)
Definition chunk_like (exp act : text) : bool := is_prefix exp act && allsp (skipn (length exp) act).

Lemma chunk_like_spec exp act : chunk_like exp act = true -> exists trail, act = exp ++ trail /\ allsp trail = true.
Proof.
  unfold chunk_like. intro H. apply andb_prop in H as [P S]. apply is_prefix_spec in P as [s ->].
  rewrite skipn_app_exact in S. now exists s.
Qed.

Definition echunk (tab : numtab) (j : nat) (e : dentry) : text :=
  match e with
  | DI s e' lab => ichunk (nat_to_text j) (num_str (lookup tab s)) (num_str (lookup tab e')) lab
  | DP t lab => pchunk (nat_to_text j) (num_str (lookup tab t)) lab
  end.

Definition times_num (tab : numtab) (e : dentry) : bool :=
  match e with
  | DI s e' _ => numshape (num_str (lookup tab s)) && numshape (num_str (lookup tab e'))
  | DP t _ => numshape (num_str (lookup tab t))
  end.

Fixpoint chunks_match {A} (f : nat -> A -> text) (k : nat) (l : list A) (cs : list text) : bool :=
  match l, cs with
  | [], [] => true
  | x :: l', c :: cs' => chunk_like (f k x) c && chunks_match f (S k) l' cs'
  | _, _ => false
  end.

Definition rd_tier_long (tab : numtab) (t : dtier) : rtier :=
  mkRT (d_isint t) (d_name t) (num_str (lookup tab (d_xmin t))) (num_str (lookup tab (d_xmax t)))
       (map (rd_entry tab) (d_ents t)).

Definition rd_tg_long (tab : numtab) (g : dtg) : rtg :=
  mkRTG (num_str (lookup tab (dg_xmin g))) (num_str (lookup tab (dg_xmax g))) (map (rd_tier_long tab) (dg_tiers g)).

(* with trimmed names the two text forms of one textgrid are read back as the same data *)
Lemma long_short_agree tab g :
  forallb (fun t => strippedb (d_name t)) (dg_tiers g) = true ->
  rd_tg_long tab g = rd_tg tab g.
Proof.
  intro H. unfold rd_tg_long, rd_tg. f_equal. apply map_ext_in. intros t Ht.
  rewrite forallb_forall in H. specialize (H t Ht). apply strippedb_spec in H.
  unfold rd_tier_long, rd_tier. now rewrite H.
Qed.

(* side condition for one tier block: cutting it at its entry keyword finds the head and the entries *)
Definition ltier_ok (tab : numtab) (k : nat) (t : dtier) (tc : text) : bool :=
  Bool.eqb (has_sub CLASS_INT tc) (d_isint t)
  && match re_split (if d_isint t then T "intervals" else T "points") tc with
     | th :: ecs =>
         chunk_like (thead (nat_to_text k) (d_isint t) (d_name t) (num_str (lookup tab (d_xmin t)))
                           (num_str (lookup tab (d_xmax t))) (nat_to_text (length (d_ents t)))) th
         && chunks_match (echunk tab) 1 (d_ents t) ecs
     | [] => false
     end
  && nonl (d_name t) && numshape (num_str (lookup tab (d_xmin t))) && numshape (num_str (lookup tab (d_xmax t)))
  && forallb (times_num tab) (d_ents t)
  && (if d_isint t then forallb is_DIb (d_ents t) else forallb (fun e => negb (is_DIb e)) (d_ents t)).

Fixpoint tiers_match (tab : numtab) (k : nat) (l : list dtier) (tcs : list text) : bool :=
  match l, tcs with
  | [], [] => true
  | t :: l', c :: cs => ltier_ok tab k t c && tiers_match tab (S k) l' cs
  | _, _ => false
  end.

(* the text before `item []` *)
Definition lhead (tab : numtab) (g : dtg) : text :=
  HEADER ++ T "xmin = " ++ num_str (lookup tab (dg_xmin g)) ++ SPNL
    ++ T "xmax = " ++ num_str (lookup tab (dg_xmax g)) ++ SPNL
    ++ T "tiers? <exists> " ++ NL1 ++ T "size = " ++ nat_to_text (length (dg_tiers g)) ++ SPNL.

Lemma lhead_app tab g r :
  lhead tab g ++ r = HEADER ++ T "xmin = " ++ num_str (lookup tab (dg_xmin g)) ++ SPNL
    ++ T "xmax = " ++ num_str (lookup tab (dg_xmax g)) ++ SPNL
    ++ T "tiers? <exists> " ++ NL1 ++ T "size = " ++ nat_to_text (length (dg_tiers g)) ++ SPNL ++ r.
Proof. unfold lhead. now rewrite <- !app_assoc. Qed.

Lemma kwline (kw t rest : text) :
  (kw ++ 61%N :: 32%N :: t ++ [32%N]) ++ 10%N :: rest = kw ++ 61%N :: 32%N :: t ++ 32%N :: 10%N :: rest.
Proof. rewrite <- app_assoc. cbn [app]. now rewrite <- app_assoc. Qed.

Lemma nonl_kwline kw t : nonl kw = true -> numshape t = true -> nonl (kw ++ 61%N :: 32%N :: t ++ [32%N]) = true.
Proof.
  intros K H. rewrite nonl_app, K. change (61%N :: 32%N :: t ++ [32%N]) with ([61%N; 32%N] ++ t ++ [32%N]).
  now rewrite !nonl_app, (plain_nonl _ (numshape_plain _ H)).
Qed.

Lemma lhead_lines tab g :
  numshape (num_str (lookup tab (dg_xmin g))) = true -> numshape (num_str (lookup tab (dg_xmax g))) = true ->
  nth_error (split_nl (lhead tab g)) 3 = Some (T "xmin " ++ 61%N :: 32%N :: num_str (lookup tab (dg_xmin g)) ++ [32%N])
  /\ nth_error (split_nl (lhead tab g)) 4 = Some (T "xmax " ++ 61%N :: 32%N :: num_str (lookup tab (dg_xmax g)) ++ [32%N]).
Proof.
  intros A B. rewrite <- (app_nil_r (lhead tab g)), lhead_app.
  change (T "xmin = " ++ ?a ++ SPNL ++ ?r) with (T "xmin " ++ 61%N :: 32%N :: a ++ 32%N :: 10%N :: r).
  change (T "xmax = " ++ ?a ++ SPNL ++ ?r) with (T "xmax " ++ 61%N :: 32%N :: a ++ 32%N :: 10%N :: r).
  rewrite <- !kwline.
  exact (header_nth _ _ _ (nonl_kwline (T "xmin ") _ eq_refl A) (nonl_kwline (T "xmax ") _ eq_refl B)).
Qed.

(* side condition for the file: cutting it at `item [` finds the header and the tier blocks *)
Definition lfile_ok (tab : numtab) (g : dtg) : bool :=
  match re_split (T "item") (print_long tab g) with
  | h :: _ :: tcs => text_eqb h (lhead tab g) && tiers_match tab 1 (dg_tiers g) tcs
  | _ => false
  end
  && numshape (num_str (lookup tab (dg_xmin g))) && numshape (num_str (lookup tab (dg_xmax g))).
