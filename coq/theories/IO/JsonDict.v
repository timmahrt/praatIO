(* IO/JsonDict.v -- the two dictionary conversions behind the plain 'json' format (C01, C03):
   _downconvertDictionaryForJson (tiers keyed by name, one span for the whole textgrid) and
   _upconvertDictionaryFromJson.  json.dumps / json.loads themselves are runtime library. *)
From PraatIO Require Import IO.IoModel.
Open Scope Z_scope.

(* the minimal form: span and an insertion-ordered dictionary name -> (type, entries) *)
Record jtier := mkJT { j_isint : bool; j_ents : list dentry }.
Record jtg := mkJTG { jg_start : Z; jg_end : Z; jg_tiers : list (text * jtier) }.

(* d[k] = v on a Python dict: an existing key keeps its position and gets the new value *)
Fixpoint dict_set (d : list (text * jtier)) (k : text) (v : jtier) : list (text * jtier) :=
  match d with
  | [] => [(k, v)]
  | (k', v') :: d' => if text_eqb k' k then (k', v) :: d' else (k', v') :: dict_set d' k v
  end.

Definition json_down (g : dtg) : jtg :=
  mkJTG (dg_xmin g) (dg_xmax g)
        (fold_left (fun d t => dict_set d (d_name t) (mkJT (d_isint t) (d_ents t))) (dg_tiers g) []).

Definition json_up (j : jtg) : dtg :=
  mkDTG (jg_start j) (jg_end j)
        (map (fun kv => mkDT (j_isint (snd kv)) (fst kv) (jg_start j) (jg_end j) (j_ents (snd kv))) (jg_tiers j)).

(* the same textgrid with every tier given the textgrid's span: what the plain json format can hold *)
Definition respan_all (g : dtg) : dtg :=
  mkDTG (dg_xmin g) (dg_xmax g)
        (map (fun t => mkDT (d_isint t) (d_name t) (dg_xmin g) (dg_xmax g) (d_ents t)) (dg_tiers g)).

Lemma dict_set_fresh d k v : ~ In k (map fst d) -> dict_set d k v = d ++ [(k, v)].
Proof.
  induction d as [|[k' v'] d IH]; intro H; [reflexivity|]. cbn [dict_set].
  destruct (text_eqb k' k) eqn:E.
  - apply text_eqb_eq in E. subst. exfalso. apply H. now left.
  - cbn [app]. f_equal. apply IH. intro Hin. apply H. now right.
Qed.

Lemma fold_down : forall l d,
  NoDup (map fst d ++ map d_name l) ->
  fold_left (fun d t => dict_set d (d_name t) (mkJT (d_isint t) (d_ents t))) l d
  = d ++ map (fun t => (d_name t, mkJT (d_isint t) (d_ents t))) l.
Proof.
  induction l as [|t l IH]; intros d ND; cbn [fold_left map]; [now rewrite app_nil_r|].
  assert (~ In (d_name t) (map fst d)) as NI.
  { cbn [map] in ND. apply NoDup_remove_2 in ND. intro Hin. apply ND, in_or_app. now left. }
  rewrite (dict_set_fresh d _ _ NI). rewrite IH.
  - now rewrite <- app_assoc.
  - rewrite map_app. cbn [map fst]. rewrite <- app_assoc. exact ND.
Qed.

(* with unique tier names nothing but the per-tier spans is lost: names, order, types and entries
   come back, every tier with the textgrid's span *)
Theorem json_up_down g : NoDup (map d_name (dg_tiers g)) -> json_up (json_down g) = respan_all g.
Proof.
  intro ND. unfold json_up, json_down, respan_all. cbn [jg_start jg_end jg_tiers].
  rewrite (fold_down (dg_tiers g) [] ND). cbn [app]. f_equal. rewrite map_map. reflexivity.
Qed.

(* and when every tier already has the textgrid's span, nothing at all is lost *)
Corollary json_up_down_exact g :
  NoDup (map d_name (dg_tiers g)) ->
  forallb (fun t => (d_xmin t =? dg_xmin g) && (d_xmax t =? dg_xmax g)) (dg_tiers g) = true ->
  json_up (json_down g) = g.
Proof.
  intros ND H. rewrite (json_up_down g ND). unfold respan_all. destruct g as [mn mx ts]. cbn in *. f_equal.
  induction ts as [|t ts IH]; [reflexivity|]. cbn [forallb] in H. apply andb_prop in H as [Ht H].
  apply andb_prop in Ht as [A B]. apply Z.eqb_eq in A, B. cbn [map]. f_equal.
  - destruct t; cbn in *. now subst.
  - apply IH; [now inversion ND|exact H].
Qed.
