(* Audio/WavProofs.v -- sample codec round trips; byte-level Wav edits refine the
   list-of-samples edits (every edit acts on whole samples and leaves all other
   samples in place); insert-then-delete restores the original (C16). *)
From PraatIO Require Import Audio.WavModel.
Open Scope Z_scope.
Local Arguments Z.mul : simpl never.

Lemma pow256_pos w : 0 < pow256 w.
Proof. unfold pow256. apply Z.pow_pos_nonneg; lia. Qed.

Lemma pow256_S w : pow256 (S w) = 256 * pow256 w.
Proof. unfold pow256. rewrite Nat2Z.inj_succ, Z.pow_succ_r by lia. reflexivity. Qed.

Lemma enc_u_length w : forall v, length (enc_u w v) = w.
Proof. induction w as [|w IH]; intro v; simpl; [reflexivity|now rewrite IH]. Qed.

Lemma enc_u_bytes w : forall v, Forall is_byte (enc_u w v).
Proof.
  induction w as [|w IH]; intro v; simpl; constructor; [|apply IH].
  unfold is_byte. apply Z.mod_pos_bound. lia.
Qed.

Lemma dec_enc_u w : forall v, 0 <= v < pow256 w -> dec_u (enc_u w v) = v.
Proof.
  induction w as [|w IH]; intros v Hv; simpl.
  - unfold pow256 in Hv. simpl in Hv. lia.
  - rewrite pow256_S in Hv. rewrite IH.
    + pose proof (Z.div_mod v 256 ltac:(lia)). lia.
    + split; [apply Z.div_pos; lia|apply Z.div_lt_upper_bound; lia].
Qed.

Lemma dec_u_range bs : Forall is_byte bs -> 0 <= dec_u bs < pow256 (length bs).
Proof.
  induction 1 as [|b bs Hb _ IH]; simpl.
  - unfold pow256. simpl. lia.
  - rewrite pow256_S. unfold is_byte in Hb. lia.
Qed.

Lemma enc_dec_u bs : Forall is_byte bs -> enc_u (length bs) (dec_u bs) = bs.
Proof.
  induction 1 as [|b bs Hb Hbs IH]; simpl; [reflexivity|].
  unfold is_byte in Hb.
  rewrite (Z.mul_comm 256), Z.mod_add, Z.div_add, Z.mod_small, Z.div_small, Z.add_0_l, IH by lia. reflexivity.
Qed.

Theorem dec_enc_s w s : in_range w s -> dec_s w (enc_s w s) = s.
Proof.
  unfold in_range, dec_s, enc_s. intro H. pose proof (pow256_pos w) as P.
  rewrite dec_enc_u by (apply Z.mod_pos_bound; lia).
  destruct (Z_lt_le_dec s 0) as [N|N].
  - assert (s mod pow256 w = s + pow256 w) as ->.
    { symmetry. apply Z.mod_unique with (q := -1); lia. }
    destruct (2 * (s + pow256 w) <? pow256 w) eqn:E; lia.
  - rewrite Z.mod_small by lia. destruct (2 * s <? pow256 w) eqn:E; lia.
Qed.

Theorem enc_dec_s w bs : Forall is_byte bs -> length bs = w -> enc_s w (dec_s w bs) = bs.
Proof.
  intros Hb <-. unfold enc_s, dec_s. pose proof (dec_u_range bs Hb) as R.
  assert (forall x, x = dec_u bs \/ x = dec_u bs - pow256 (length bs) -> x mod pow256 (length bs) = dec_u bs) as M.
  { intros x [->| ->].
    - apply Z.mod_small. lia.
    - symmetry. apply Z.mod_unique with (q := -1); lia. }
  rewrite M by (destruct (2 * dec_u bs <? pow256 (length bs)); auto).
  apply enc_dec_u, Hb.
Qed.

Lemma dec_s_range w bs : Forall is_byte bs -> length bs = w -> (0 < w)%nat -> in_range w (dec_s w bs).
Proof.
  intros Hb <- Hw. unfold in_range, dec_s. pose proof (dec_u_range bs Hb) as R.
  destruct (2 * dec_u bs <? pow256 (length bs)) eqn:E; lia.
Qed.

Lemma enc_s_length w s : length (enc_s w s) = w.
Proof. apply enc_u_length. Qed.

Lemma encode_all_length w l : length (encode_all w l) = (length l * w)%nat.
Proof. induction l as [|x l IH]; simpl; [reflexivity|]. rewrite app_length, enc_s_length, IH. lia. Qed.

Lemma encode_all_app w a b : encode_all w (a ++ b) = encode_all w a ++ encode_all w b.
Proof. unfold encode_all. apply flat_map_app. Qed.

Lemma decode_chunks_app f w c bs : (0 < w)%nat -> length c = w ->
  decode_chunks (S f) w (c ++ bs) = dec_s w c :: decode_chunks f w bs.
Proof.
  intros Hw <-. cbn [decode_chunks]. destruct (c ++ bs) eqn:E.
  - destruct c; [inversion Hw|discriminate].
  - now rewrite <- E, firstn_app_exact, skipn_app_exact.
Qed.

Lemma decode_chunks_encode w l : (0 < w)%nat -> Forall (in_range w) l ->
  forall fuel, (length l <= fuel)%nat -> decode_chunks fuel w (encode_all w l) = l.
Proof.
  intros Hw. induction 1 as [|x l Hx _ IH]; intros fuel Hf.
  - destruct fuel; reflexivity.
  - destruct fuel as [|f]; [inversion Hf|]. apply le_S_n in Hf.
    change (encode_all w (x :: l)) with (enc_s w x ++ encode_all w l).
    now rewrite decode_chunks_app, dec_enc_s, IH by (assumption || apply enc_s_length).
Qed.

Theorem decode_encode_all w l : (0 < w)%nat -> Forall (in_range w) l -> decode_all w (encode_all w l) = l.
Proof.
  intros Hw H. unfold decode_all. apply decode_chunks_encode; auto.
  rewrite encode_all_length. rewrite <- (Nat.mul_1_r (length l)) at 1. apply Nat.mul_le_mono_l, Hw.
Qed.

Theorem convert_roundtrip w l : (0 < w)%nat -> Forall (in_range w) l ->
  convert_from_bytes w (encode_all w l) = Ok l.
Proof.
  intros Hw H. unfold convert_from_bytes.
  assert ((w =? 0)%nat = false) as -> by (apply Nat.eqb_neq; lia).
  rewrite encode_all_length, Nat.mod_mul by lia. simpl. now rewrite decode_encode_all.
Qed.

Lemma encode_decode_chunks w : (0 < w)%nat -> forall n bs fuel,
  length bs = (n * w)%nat -> Forall is_byte bs -> (n <= fuel)%nat ->
  encode_all w (decode_chunks fuel w bs) = bs.
Proof.
  intros Hw. induction n as [|n IH]; intros bs fuel L Hb Hf.
  - destruct bs; [|discriminate]. destruct fuel; reflexivity.
  - destruct fuel as [|f]; [inversion Hf|]. apply le_S_n in Hf. cbn [Nat.mul] in L.
    assert (length (firstn w bs) = w) as L1 by (apply firstn_length_le; rewrite L; apply Nat.le_add_r).
    rewrite <- (firstn_skipn w bs) at 1 2. rewrite decode_chunks_app by assumption.
    change (encode_all w (?x :: ?l)) with (enc_s w x ++ encode_all w l).
    rewrite enc_dec_s, IH; [reflexivity| |apply Forall_skipn, Hb|exact Hf|apply Forall_firstn, Hb|exact L1].
    rewrite skipn_length, L, Nat.add_comm. apply Nat.add_sub.
Qed.

Theorem encode_decode_all w n bs : (0 < w)%nat -> length bs = (n * w)%nat -> Forall is_byte bs ->
  encode_all w (decode_all w bs) = bs.
Proof. intros Hw L Hb. unfold decode_all. apply (encode_decode_chunks w Hw n); auto. rewrite L. rewrite <- (Nat.mul_1_r n) at 1. apply Nat.mul_le_mono_l, Hw. Qed.

Lemma firstn_encode w i l : firstn (i * w) (encode_all w l) = encode_all w (firstn i l).
Proof.
  revert l; induction i as [|i IH]; intro l; [reflexivity|].
  destruct l as [|x l]; [now rewrite firstn_nil|].
  simpl encode_all. replace (S i * w)%nat with (length (enc_s w x) + i * w)%nat by (rewrite enc_s_length; lia).
  rewrite firstn_app_2. now rewrite IH.
Qed.

Lemma skipn_encode w i l : skipn (i * w) (encode_all w l) = encode_all w (skipn i l).
Proof.
  revert l; induction i as [|i IH]; intro l; [reflexivity|].
  destruct l as [|x l]; [now rewrite skipn_nil|].
  simpl encode_all. replace (S i * w)%nat with (w + i * w)%nat by lia.
  rewrite skipn_app, skipn_all2 by (rewrite enc_s_length; lia).
  rewrite enc_s_length. replace (w + i * w - w)%nat with (i * w)%nat by lia. simpl. apply IH.
Qed.

Lemma to_nat_scaled k w : Z.to_nat (k * Z.of_nat w) = (Z.to_nat k * w)%nat.
Proof.
  destruct (Z_lt_le_dec k 0) as [N|N].
  - assert (k * Z.of_nat w <= 0) by nia.
    replace (Z.to_nat (k * Z.of_nat w)) with 0%nat by lia. replace (Z.to_nat k) with 0%nat by lia. reflexivity.
  - rewrite Z2Nat.inj_mul by lia. now rewrite Nat2Z.id.
Qed.

Section Refine.
  Context (w : nat) (r : Z).

  Lemma upto_index l t : upto (encode_all w l) (index_at r w t) = encode_all w (upto l (frame_at r t)).
  Proof. unfold upto, index_at. rewrite to_nat_scaled. apply firstn_encode. Qed.

  Lemma from_index l t : from (encode_all w l) (index_at r w t) = encode_all w (from l (frame_at r t)).
  Proof. unfold from, index_at. rewrite to_nat_scaled. apply skipn_encode. Qed.

  Lemma between_index l t0 t1 :
    between (encode_all w l) (index_at r w t0) (index_at r w t1) = encode_all w (between l (frame_at r t0) (frame_at r t1)).
  Proof.
    unfold between, index_at. rewrite !to_nat_scaled, <- Nat.mul_sub_distr_r, skipn_encode. apply firstn_encode.
  Qed.

  (* each edit of the byte string is the same edit of the sample list: whole samples are
     removed / inserted / returned, every other sample keeps its value and order; width and
     rate are untouched *)
  Lemma run_wop_encoded s o :
    run_wop (mkWav (encode_all w s) w r) o = mkWav (encode_all w (s_samples (run_sop (mkSW s r) o))) w r.
  Proof.
    destruct o as [t f|a b|a b f|f|a b];
      unfold run_wop, wav_replace, wav_insert, wav_delete, wav_concat, wav_subwav, wav_get_frames; simpl; f_equal.
    - now rewrite upto_index, from_index, <- !encode_all_app.
    - now rewrite upto_index, from_index, <- encode_all_app.
    - rewrite upto_index, from_index, <- encode_all_app.
      now rewrite upto_index, from_index, <- !encode_all_app.
    - now rewrite encode_all_app.
    - apply between_index.
  Qed.

  Lemma run_sop_rate s o : run_sop (mkSW s r) o = mkSW (s_samples (run_sop (mkSW s r) o)) r.
  Proof. destruct o; reflexivity. Qed.

  Theorem history_refines ops : forall s,
    fold_left run_wop ops (mkWav (encode_all w s) w r)
    = mkWav (encode_all w (s_samples (fold_left run_sop ops (mkSW s r)))) w r.
  Proof.
    induction ops as [|o ops IH]; intro s; cbn [fold_left]; [reflexivity|].
    now rewrite run_wop_encoded, IH, <- run_sop_rate.
  Qed.

  Theorem get_samples_spec s t0 t1 : (0 < w)%nat -> Forall (in_range w) s ->
    wav_get_samples (mkWav (encode_all w s) w r) t0 t1 = Ok (sw_get (mkSW s r) t0 t1).
  Proof.
    intros Hw H. unfold wav_get_samples, wav_get_frames, sw_get. simpl. rewrite between_index.
    apply convert_roundtrip; [exact Hw|]. apply Forall_firstn, Forall_skipn, H.
  Qed.
End Refine.

Lemma rhe_shift n d k : 0 < d -> 2 * (n mod d) <> d ->
  round_half_even (n + k * d) d = round_half_even n d + k.
Proof.
  intros Hd. unfold round_half_even. rewrite Z.div_add, Z.mod_add by lia.
  generalize (n / d) (n mod d). intros q m NT.
  destruct (2 * m <? d) eqn:E1; [reflexivity|]. destruct (d <? 2 * m) eqn:E2; lia.
Qed.

Lemma rhe_scale n d c : 0 < d -> 0 < c -> round_half_even (n * c) (d * c) = round_half_even n d.
Proof.
  intros Hd Hc. unfold round_half_even.
  rewrite Z.div_mul_cancel_r, Zmult_mod_distr_r, Z.mul_assoc, !ltb_mul_r by lia. reflexivity.
Qed.

(* the time t + k/rate, for t = n/d *)
Definition plus_samples (rate : Z) (t : Z * Z) (k : Z) : Z * Z := (fst t * rate + k * snd t, snd t * rate).

(* shifting a time by k whole samples shifts its index by k, except on exact ties between two
   samples (round-half-even) *)
Lemma frame_at_plus rate t k : 0 < rate -> 0 < snd t -> 2 * ((fst t * rate) mod snd t) <> snd t ->
  frame_at rate (plus_samples rate t k) = frame_at rate t + k.
Proof.
  intros Hr Hd NT. unfold frame_at, plus_samples. simpl.
  rewrite rhe_scale by lia. apply rhe_shift; assumption.
Qed.

(* inserting a stretch at t and deleting [t, t + its duration] restores the original,
   for every time in [0, duration] that is not exactly half-way between two samples *)
Theorem insert_delete_identity rate s t f : 0 < rate -> 0 < snd t ->
  2 * ((fst t * rate) mod snd t) <> snd t ->
  0 <= frame_at rate t <= Z.of_nat (length s) ->
  sw_delete (sw_insert (mkSW s rate) t f) t (plus_samples rate t (Z.of_nat (length f))) = mkSW s rate.
Proof.
  intros Hr Hd NT [Hi0 Hi]. unfold sw_delete, sw_insert. simpl. rewrite frame_at_plus by assumption.
  f_equal. unfold upto, from. rewrite Z2Nat.inj_add, Nat2Z.id by (assumption || apply Nat2Z.is_nonneg).
  apply delete_insert_id, Nat2Z.inj_le. now rewrite Z2Nat.id.
Qed.
