(* Audio/ZeroCrossProofs.v -- the zero-crossing search terminates, and what it returns is a
   genuine crossing on a sample position inside the recording (C18). *)
From PraatIO Require Import Audio.ZeroCross.
Open Scope Z_scope.

Lemma find_first_spec {A} (p : A -> bool) d l : forall i k,
  find_first p l i = Some k -> exists j, k = (i + j)%nat /\ (j < length l)%nat /\ p (nth j l d) = true.
Proof.
  induction l as [|x l IH]; intros i k; simpl; [discriminate|].
  destruct (p x) eqn:E.
  - intros [= <-]. exists 0%nat. repeat split; [lia|lia|exact E].
  - intro H. apply IH in H as (j & -> & L & P). exists (S j). repeat split; [lia|lia|exact P].
Qed.

Lemma find_last_spec {A} (p : A -> bool) d l : forall i best k,
  find_last p l i best = Some k ->
  best = Some k \/ exists j, k = (i + j)%nat /\ (j < length l)%nat /\ p (nth j l d) = true.
Proof.
  induction l as [|x l IH]; intros i best k; simpl; [auto|].
  intro H. apply IH in H as [H|(j & -> & L & P)].
  - destruct (p x) eqn:E; [|auto]. injection H as <-. right. exists 0%nat. repeat split; [lia|lia|exact E].
  - right. exists (S j). repeat split; [lia|lia|exact P].
Qed.

Lemma find_idx_spec {A} (p : A -> bool) d l rev k :
  find_idx p l rev = Some k -> (k < length l)%nat /\ p (nth k l d) = true.
Proof.
  unfold find_idx. destruct rev; intro H.
  - apply (find_last_spec p d) in H as [H|(j & -> & L & P)]; [discriminate|]. simpl. auto.
  - apply (find_first_spec p d) in H as (j & -> & L & P). simpl. auto.
Qed.

Lemma changes_spec w : forall j, (j < length (changes w))%nat ->
  (S j < length w)%nat /\ nth j (changes w) false = negb (zsign (nth j w 0) =? zsign (nth (S j) w 0)).
Proof.
  induction w as [|a w IH]; intros j H; [simpl in H; lia|].
  destruct w as [|b w']; [simpl in H; lia|].
  change (changes (a :: b :: w')) with (negb (zsign a =? zsign b) :: changes (b :: w')) in *.
  destruct j as [|j].
  - split; [simpl; lia|reflexivity].
  - cbn [length] in H. destruct (IH j) as (L & N); [lia|]. split; [cbn [length] in *; lia|exact N].
Qed.

Lemma next_crossing_spec w rev i : next_crossing w rev = Some i -> crossing w i.
Proof.
  unfold next_crossing. destruct (find_idx (fun x => x =? 0) w rev) as [k|] eqn:E.
  - intros [= <-]. apply (find_idx_spec _ 0) in E as (L & P). split; [exact L|left; lia].
  - unfold threshold_crossing. destruct (find_idx (fun b : bool => b) (changes w) rev) as [k|] eqn:F; [|discriminate].
    apply (find_idx_spec _ false) in F as (L & P). destruct (changes_spec w k L) as (L2 & N).
    rewrite N in P. apply negb_true_iff, Z.eqb_neq in P.
    destruct (Z.abs (nth (S k) w 0) <? Z.abs (nth k w 0)); intros [= <-].
    + split; [exact L2|]. right. right. exists k. auto.
    + split; [lia|]. right. left. auto.
Qed.

(* a window that reads the recording from position A on: its crossings are crossings of the recording *)
Lemma crossing_shift s w A :
  (forall k, (k < length w)%nat -> nth k w 0 = nth (A + k) s 0 /\ (A + k < length s)%nat) ->
  forall i, crossing w i -> crossing s (A + i).
Proof.
  intros N i (L & H). destruct (N i L) as [Ni Li]. split; [exact Li|].
  destruct H as [H|[(H & L2)|(k & -> & H)]].
  - left. now rewrite <- Ni.
  - right. left. destruct (N (S i) L2) as [Ns Ls]. rewrite Nat.add_succ_r in Ns, Ls.
    split; [now rewrite <- Ni, <- Ns|exact Ls].
  - right. right. exists (A + k)%nat. split; [apply Nat.add_succ_r|].
    destruct (N k (Nat.lt_succ_l _ _ L)) as [Nk _]. now rewrite <- Nk, <- Ni.
Qed.

Lemma crossing_window s A n i : crossing (firstn n (skipn A s)) i -> crossing s (A + i).
Proof.
  apply crossing_shift. intros k Hk. rewrite firstn_length, skipn_length in Hk.
  apply Nat.min_glb_lt_iff in Hk as [H1 H2]. split; [apply nth_firstn_skipn, H1|apply Nat.lt_add_lt_sub_l, H2].
Qed.

Lemma get_interval_nonneg start dur mx rev : 0 <= fst (get_interval start dur mx rev).
Proof.
  unfold get_interval. destruct rev.
  - destruct (start - dur <? 0) eqn:E; simpl; [lia|]. destruct (mx <? start); simpl; lia.
  - destruct (start <? 0) eqn:E; simpl; [lia|]. destruct (mx <? start + dur); simpl; lia.
Qed.

Definition on_crossing (K : Z) (s : list Z) (x : Z) : Prop := exists j, x = Z.of_nat j * K /\ crossing s j.

Lemma iter_zc_spec K dur s start within step rev x : 0 < K ->
  iter_zc K dur s start within step rev = Some x -> on_crossing K s x.
Proof.
  intros HK. unfold iter_zc. destruct within; [|discriminate].
  pose proof (get_interval_nonneg start step dur rev) as NN.
  destruct (get_interval start step dur rev) as [a b]. simpl in NN.
  destruct (next_crossing (between s (frK K a) (frK K b)) rev) as [i|] eqn:E; [|discriminate].
  intros [= <-]. apply next_crossing_spec in E. unfold between in E. apply crossing_window in E.
  pose proof (rhe_nonneg a K HK NN) as R. unfold frK in *.
  exists (Z.to_nat (round_half_even a K) + i)%nat. split; [|exact E].
  rewrite Nat2Z.inj_add, Z2Nat.id by exact R. reflexivity.
Qed.

Lemma choose_spec t a b x : choose t a b = Some x -> a = Some x \/ b = Some x.
Proof.
  unfold choose. destruct a as [p|], b as [q|].
  - destruct (Z.abs (p - t) <=? Z.abs (q - t)); intros [= <-]; auto.
  - intros [= <-]; auto.
  - intros [= <-]; auto.
  - discriminate.
Qed.

(* with fuel above the distances to both ends the loop never runs dry: it stops with "no crossing" once both
   ends are passed, or returns the closer of the two candidates of some round *)
Lemma zc_loop_inv K dur st t s : 0 < st -> forall fuel left right,
  Z.max 0 (Z.max (left + 1) (dur - right + 1)) < Z.of_nat fuel ->
  zc_loop fuel K dur st t left right s = Err FindZeroCrossingError \/
  exists l r x, zc_loop fuel K dur st t left right s = Ok x
    /\ choose t (iter_zc K dur s l (0 <? l) (st + K) true) (iter_zc K dur s r (r + st <? dur) (st + K) false) = Some x.
Proof.
  intros Hst. induction fuel as [|f IH]; intros left right Hm; [lia|]. cbn [zc_loop].
  destruct (choose t _ _) as [x|] eqn:E; [right; exists left, right, x; auto|].
  destruct ((left <? 0) && (dur <? right)) eqn:B; [left; reflexivity|].
  apply IH. lia.
Qed.

Theorem find_zc_result K s t st : 0 < K ->
  match find_zc K s t st with
  | Ok x => on_crossing K s x
  | Err e => (e = ArgumentError /\ st < 2 * K) \/ (e = FindZeroCrossingError /\ 2 * K <= st)
  end.
Proof.
  intro HK. unfold find_zc. destruct (st <? 2 * K) eqn:E; [left; split; [reflexivity|lia]|].
  set (dur := Z.of_nat (length s) * K).
  destruct (zc_loop_inv K dur st t s ltac:(lia) (Z.to_nat (Z.max (t + 1) (dur - t + 1)) + 1) t t ltac:(lia))
    as [->|(l & r & x & -> & C)].
  - right. split; [reflexivity|lia].
  - apply choose_spec in C as [C|C]; eapply iter_zc_spec; eauto.
Qed.
