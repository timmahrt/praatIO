(* Audio/KeepDeleteProofs.v -- the keep/delete marking tiles the recording; reading with a
   marking keeps exactly the kept samples, in place when a replacement is generated (C17). *)
From PraatIO Require Import Audio.KeepDelete.
Open Scope Z_scope.

Lemma tiling_le lo ms hi : tiling lo ms hi -> (lo <= hi)%nat.
Proof.
  revert lo; induction ms as [|[[a b] k] ms IH]; intro lo; simpl; [lia|].
  intros (-> & Hab & T). apply IH in T. lia.
Qed.

Lemma tiling_In lo ms hi a b k : tiling lo ms hi -> In (a, b, k) ms -> (lo <= a /\ b <= hi)%nat.
Proof.
  revert lo; induction ms as [|[[x y] kk] ms IH]; intros lo T; [intros []|].
  destruct T as (-> & Hxy & T). intros [E|Hin].
  - injection E as <- <- _. apply tiling_le in T. lia.
  - destruct (IH _ T Hin). lia.
Qed.

Section Render.
  Context (s : list Z) (g : nat -> list Z) (Hg : forall n, length (g n) = n).

  Lemma piece_idx_length a b k : (a <= b)%nat -> (b <= length s)%nat ->
    (length (piece_idx s g (a, b, k)) + a = b)%nat.
  Proof.
    intros H1 H2. cbn [piece_idx]. destruct k; [rewrite firstn_skipn_length|rewrite Hg]; lia.
  Qed.

  Lemma render_length ms : forall lo hi, tiling lo ms hi -> (hi <= length s)%nat ->
    (length (flat_map (piece_idx s g) ms) + lo = hi)%nat.
  Proof.
    induction ms as [|[[a b] k] ms IH]; intros lo hi T Hhi; [exact T|].
    destruct T as (-> & Hab & T). pose proof (tiling_le _ _ _ T).
    pose proof (piece_idx_length lo b k (Nat.lt_le_incl _ _ Hab) (Nat.le_trans _ _ _ H Hhi)).
    cbn [flat_map]. rewrite app_length, <- (IH _ _ T Hhi). lia.
  Qed.

  (* positions counted from lo, so that no truncated subtraction is needed until the end *)
  Lemma render_nth ms : forall lo hi, tiling lo ms hi -> (hi <= length s)%nat ->
    forall a b j d, In (a, b, true) ms -> (a <= lo + j < b)%nat ->
      nth j (flat_map (piece_idx s g) ms) d = nth (lo + j) s d.
  Proof.
    induction ms as [|[[a0 b0] k] ms IH]; intros lo hi T Hhi a b j d; [intros []|].
    destruct T as (-> & Hab & T). pose proof (tiling_le _ _ _ T).
    pose proof (piece_idx_length lo b0 k (Nat.lt_le_incl _ _ Hab) (Nat.le_trans _ _ _ H Hhi)) as LP.
    cbn [flat_map]. intros [E|Hin] Hj.
    - injection E as <- <- ->. rewrite app_nth1 by lia. apply nth_firstn_skipn. lia.
    - destruct (tiling_In _ _ _ _ _ _ T Hin) as [Hb _].
      rewrite app_nth2 by lia. rewrite (IH _ _ T Hhi a b) by (assumption || lia). f_equal. lia.
  Qed.

  (* with a replacement generator the result has the original length and every kept sample
     is at its original position *)
  Theorem render_tiling ms : forall lo hi, tiling lo ms hi -> (hi <= length s)%nat ->
    length (flat_map (piece_idx s g) ms) = (hi - lo)%nat
    /\ forall a b i d, In (a, b, true) ms -> (a <= i < b)%nat ->
         nth (i - lo) (flat_map (piece_idx s g) ms) d = nth i s d.
  Proof.
    intros lo hi T Hhi. split; [pose proof (render_length ms lo hi T Hhi); lia|].
    intros a b i d Hin Hi. destruct (tiling_In _ _ _ _ _ _ T Hin).
    rewrite (render_nth ms lo hi T Hhi a b) by (assumption || lia). f_equal. lia.
  Qed.
End Render.

Theorem no_lists_keeps_all start stop : keep_delete start stop [] [] = Ok [(start, stop, true)].
Proof. reflexivity. Qed.

(* well-formed interval list inside [lo,hi]: positive, in order, disjoint (touching allowed) *)
Fixpoint rchain (lo : Z) (l : list row) (hi : Z) : Prop :=
  match l with
  | [] => lo <= hi
  | r :: l' => lo <= fst r /\ fst r < snd r /\ rchain (snd r) l' hi
  end.

Fixpoint gaps (lo : Z) (l : list row) (hi : Z) : list row :=
  match l with
  | [] => if lo <? hi then [(lo, hi)] else []
  | r :: l' => (if lo <? fst r then [(lo, fst r)] else []) ++ gaps (snd r) l' hi
  end.

Definition nz (r : row) : bool := negb (fst r =? snd r).

Lemma rchain_sorted lo l hi : rchain lo l hi -> StronglySorted (lebP pleb2) l.
Proof.
  apply (chain_sorted fst snd (fun _ => True) pleb2 (fun lo l => rchain lo l hi)); [|cbn; tauto].
  intros a b _ H. unfold pleb2. apply Z.compare_lt_iff in H. now rewrite H.
Qed.

Lemma rchain_valid lo l hi : rchain lo l hi -> existsb (fun r => snd r <=? fst r) l = false.
Proof.
  revert lo; induction l as [|r l IH]; intro lo; simpl; [reflexivity|].
  intros (_ & B & C). rewrite (IH _ C). assert (snd r <=? fst r = false) as -> by lia. reflexivity.
Qed.

Lemma filter_nz_cons lo a rest : lo <= a ->
  filter nz ((lo, a) :: rest) = (if lo <? a then [(lo, a)] else []) ++ filter nz rest.
Proof.
  intro H. cbn [filter]. unfold nz at 1. cbn [fst snd].
  destruct (lo =? a) eqn:E; cbn [negb].
  - assert (lo <? a = false) as -> by lia. reflexivity.
  - assert (lo <? a = true) as -> by lia. reflexivity.
Qed.

(* gaps of a chain with a head sentinel ending at lo and, unless the chain already ends at hi,
   a tail sentinel starting at hi *)
Lemma gaps_framed l : forall x lo hi tl, rchain lo l hi ->
  (exists y, tl = [(hi, y)]) \/ (tl = [] /\ exists rl, last_opt ((x, lo) :: l) = Some rl /\ snd rl = hi) ->
  filter nz (consecutive_gaps ((x, lo) :: l ++ tl)) = gaps lo l hi.
Proof.
  induction l as [|[a b] l IH]; intros x lo hi tl C T.
  - cbn [rchain] in C. cbn [gaps app]. destruct T as [(y & ->)|(-> & rl & [= <-] & <-)].
    + cbn [consecutive_gaps fst snd]. rewrite (filter_nz_cons _ _ _ C). apply app_nil_r.
    + cbn [snd]. now rewrite Z.ltb_irrefl.
  - destruct C as (A & B & C). cbn [fst snd] in *.
    change (consecutive_gaps ((x, lo) :: ((a, b) :: l) ++ tl)) with ((lo, a) :: consecutive_gaps ((a, b) :: l ++ tl)).
    now rewrite (filter_nz_cons _ _ _ A), (IH a b hi tl C T).
Qed.

Lemma last_snd_chain l : forall lo hi r0, rchain lo (r0 :: l) hi ->
  exists rl, last_opt (r0 :: l) = Some rl /\ snd rl <= hi.
Proof.
  induction l as [|r l IH]; intros lo hi r0 C.
  - exists r0. cbn in *. tauto.
  - destruct C as (A & B & C). apply (IH (snd r0) hi r C).
Qed.

Lemma last_opt_app_one {A} (l : list A) x : last_opt (l ++ [x]) = Some x.
Proof. apply last_opt_snoc. Qed.

(* utils.invertIntervalList on a well-formed list inside [lo,hi] returns exactly the gaps *)
Theorem invert_is_gaps lo l hi : rchain lo l hi -> lo < hi ->
  invert_list l (Some lo) (Some hi) = Ok (gaps lo l hi).
Proof.
  intros C Hlh. unfold invert_list. rewrite (rchain_valid _ _ _ C).
  rewrite (isort_sorted_id _ _ (rchain_sorted _ _ _ C)).
  destruct l as [|[a b] l'].
  - simpl. assert (lo <? hi = true) as -> by lia. reflexivity.
  - cbn [bind fst]. destruct (last_snd_chain _ _ _ _ C) as (rl & E & HL).
    destruct C as (A & B & C). cbn [fst snd] in *.
    (* the head sentinel is (-1, lo), or the first interval itself when it starts at lo;
       either way the last element is rl *)
    assert (forall tl, (exists y, tl = [(hi, y)]) \/ tl = [] /\ snd rl = hi ->
              filter nz (consecutive_gaps ((if lo <? a then (-1, lo) :: (a, b) :: l' else (a, b) :: l') ++ tl))
              = gaps lo ((a, b) :: l') hi) as G.
    { intros tl T. destruct (lo <? a) eqn:L.
      - apply (gaps_framed ((a, b) :: l') (-1) lo hi tl); [cbn; auto|]. destruct T as [T|(-> & T)]; eauto.
      - cbn [gaps fst snd app]. rewrite L. apply (gaps_framed l' a b hi tl C). destruct T as [T|(-> & T)]; eauto. }
    unfold row in *.
    assert (last_opt (if lo <? a then (-1, lo) :: (a, b) :: l' else (a, b) :: l') = Some rl) as ->
      by (now destruct (lo <? a)).
    cbn [bind]. f_equal. destruct (snd rl <? hi) eqn:L.
    + apply G. eauto.
    + rewrite <- (app_nil_r (if lo <? a then _ else _)). apply G. right. split; [reflexivity|lia].
Qed.

Lemma mark_spec_perm lab lo l hi :
  Permutation (map (mk_mark lab) l ++ map (mk_mark (negb lab)) (gaps lo l hi)) (mark_spec lab lo l hi).
Proof.
  revert lo; induction l as [|r l IH]; intro lo; simpl.
  - destruct (lo <? hi); reflexivity.
  - rewrite map_app. destruct (lo <? fst r); simpl.
    + rewrite perm_swap. apply perm_skip.
      eapply Permutation_trans; [|apply perm_skip, IH].
      apply Permutation_sym, Permutation_middle.
    + apply perm_skip, IH.
Qed.

Fixpoint mtile (lo : Z) (ms : list mark) (hi : Z) : Prop :=
  match ms with
  | [] => lo = hi
  | m :: ms' => m_start m = lo /\ m_start m < m_end m /\ mtile (m_end m) ms' hi
  end.

Lemma mark_spec_tile lab lo l hi : rchain lo l hi -> mtile lo (mark_spec lab lo l hi) hi.
Proof.
  revert lo; induction l as [|r l IH]; intro lo; simpl.
  - intro H. destruct (lo <? hi) eqn:E; simpl; unfold m_start, m_end; simpl; lia.
  - intros (A & B & C). destruct (lo <? fst r) eqn:E; simpl; unfold m_start, m_end; simpl;
      repeat split; try lia; apply IH, C.
Qed.

Lemma mtile_sorted lo ms hi : mtile lo ms hi -> StronglySorted (lebP mleb) ms.
Proof.
  apply (chain_sorted m_start m_end (fun _ => True) mleb (fun lo ms => mtile lo ms hi)); [|cbn; intuition lia].
  intros a b _ H. unfold mleb. apply Z.compare_lt_iff in H. now rewrite H.
Qed.

(* mleb is the order of the three-way comparison by (start, end, keep), delete before keep *)
Definition bcmp (a b : bool) : comparison := if a then (if b then Eq else Gt) else (if b then Lt else Eq).

Lemma bcmp_ok : cmp_ok bcmp.
Proof.
  split; [intros [] []; reflexivity|]. split; [intros [] []; cbn; split; congruence|intros [] [] []; cbn; congruence].
Qed.

Definition mcmp (p q : mark) : comparison :=
  match (match m_start p ?= m_start q with Eq => m_end p ?= m_end q | c => c end) with
  | Eq => bcmp (m_keep p) (m_keep q) | c => c end.

Lemma mcmp_ok : cmp_ok mcmp.
Proof. exact (lex_ok _ _ (lex_ok _ _ Z_compare_ok Z_compare_ok) bcmp_ok). Qed.

Lemma mleb_of a b : mleb a b = leb_of mcmp a b.
Proof.
  unfold mleb, leb_of, mcmp. destruct (m_start a ?= m_start b); [|reflexivity..].
  destruct (m_end a ?= m_end b); [|reflexivity..]. destruct (m_keep a), (m_keep b); reflexivity.
Qed.

Lemma mleb_total a b : mleb a b = true \/ mleb b a = true.
Proof. rewrite !mleb_of. apply leb_of_total, mcmp_ok. Qed.

Lemma mleb_trans a b c : mleb a b = true -> mleb b c = true -> mleb a c = true.
Proof. rewrite !mleb_of. apply leb_of_trans, mcmp_ok. Qed.

Lemma mleb_antisym a b : mleb a b = true -> mleb b a = true -> a = b.
Proof. rewrite !mleb_of. apply leb_of_antisym, mcmp_ok. Qed.

(* sorting the intervals (labelled lab) together with their gaps (labelled the other way) interleaves them *)
Lemma marks_sorted lab lo l hi : rchain lo l hi ->
  isort mleb (map (mk_mark lab) l ++ map (mk_mark (negb lab)) (gaps lo l hi)) = mark_spec lab lo l hi.
Proof.
  intro C. apply (isort_unique mleb mleb_total mleb_trans mleb_antisym).
  - apply mark_spec_perm.
  - eapply mtile_sorted, mark_spec_tile, C.
Qed.

(* _computeKeepDeleteIntervals: the labelled stretches tile [start, stop]; the given intervals
   carry their label, every gap the opposite one *)
Theorem keep_delete_keep lo hi k ks : rchain lo (k :: ks) hi -> lo < hi ->
  keep_delete lo hi (k :: ks) [] = Ok (mark_spec true lo (k :: ks) hi).
Proof.
  intros C H. unfold keep_delete. rewrite (invert_is_gaps _ _ _ C H). cbn [bind]. f_equal.
  apply (marks_sorted true), C.
Qed.

Theorem keep_delete_delete lo hi d ds : rchain lo (d :: ds) hi -> lo < hi ->
  keep_delete lo hi [] (d :: ds) = Ok (mark_spec false lo (d :: ds) hi).
Proof.
  intros C H. unfold keep_delete. rewrite (invert_is_gaps _ _ _ C H). cbn [bind]. f_equal.
  rewrite (isort_perm_eq mleb mleb_total mleb_trans mleb_antisym _ _ (Permutation_app_comm _ _)).
  apply (marks_sorted false), C.
Qed.

Theorem keep_delete_tiles lo hi keep del ms :
  rchain lo (keep ++ del) hi -> lo < hi ->
  keep_delete lo hi keep del = Ok ms -> mtile lo ms hi.
Proof.
  intros C H. destruct keep as [|k ks], del as [|d ds].
  - intros [= <-]. exact (conj eq_refl (conj H eq_refl)).
  - rewrite (keep_delete_delete _ _ _ _ C H). intros [= <-]. exact (mark_spec_tile false lo (d :: ds) hi C).
  - rewrite app_nil_r in C. rewrite (keep_delete_keep _ _ _ _ C H). intros [= <-].
    exact (mark_spec_tile true lo (k :: ks) hi C).
  - discriminate.
Qed.
