(* Audio/ZeroCrossFound.v -- C18: when the sample right before an on-sample target is zero, the search returns a
   crossing (find_zc_zero_before_target). The silent recording is the special case stated in Props/C18.v
   (C18_silence_found). *)
From PraatIO Require Import Audio.ZeroCross Audio.ZeroCrossProofs.
Open Scope Z_scope.

Lemma find_last_none {A} (p : A -> bool) (l : list A) : forall i best,
  find_last p l i best = None -> best = None /\ forall x, In x l -> p x = false.
Proof.
  induction l as [|a l IH]; intros i best H; cbn [find_last] in H.
  - split; [exact H|]. intros x [].
  - destruct (IH _ _ H) as [Hb Hl]. destruct (p a) eqn:Ep; [discriminate Hb|].
    split; [exact Hb|]. intros x [<-|Hx]; [exact Ep|exact (Hl x Hx)].
Qed.

Lemma rhe_below K a i : 0 < K -> a <= (i - 1) * K -> round_half_even a K <= i.
Proof.
  intros HK H. pose proof (rhe_bounds a K).
  assert (a / K <= i - 1) by (apply Z.div_le_upper_bound; [exact HK|now rewrite Z.mul_comm]). lia.
Qed.

Lemma between_last (s : list Z) (a m : nat) : (a <= m < length s)%nat ->
  In (nth m s 0) (between s (Z.of_nat a) (Z.of_nat (S m))).
Proof.
  intros [Ha Hm]. unfold between. rewrite !Nat2Z.id.
  destruct (Nat.le_exists_sub a m Ha) as (p & -> & _).
  rewrite <- Nat.add_succ_l, Nat.add_sub, Nat.add_comm.
  rewrite <- (nth_firstn_skipn s a (S p) p 0 (Nat.lt_succ_diag_r p)).
  apply nth_In. rewrite firstn_skipn_length; [apply Nat.lt_succ_diag_r|]. now rewrite Nat.add_succ_r, Nat.add_comm.
Qed.

(* the left-hand window of the first round ends at the target sample S m and starts below it *)
Lemma left_window K (s : list Z) m st : 0 < K -> (m < length s)%nat -> 2 * K <= st ->
  exists a, get_interval (Z.of_nat (S m) * K) (st + K) (Z.of_nat (length s) * K) true = (a, Z.of_nat (S m) * K)
    /\ 0 <= frK K a <= Z.of_nat m.
Proof.
  intros HK Hm Hst. exists (Z.max 0 (Z.of_nat (S m) * K - (st + K))). split.
  - unfold get_interval. destruct (Z.of_nat (S m) * K - (st + K) <? 0) eqn:E1; [f_equal; lia|].
    destruct (Z.of_nat (length s) * K <? Z.of_nat (S m) * K) eqn:E2; [nia|f_equal; lia].
  - unfold frK. split; [apply rhe_nonneg; lia|].
    destruct (Z.max_spec 0 (Z.of_nat (S m) * K - (st + K))) as [[_ ->]|[_ ->]].
    + apply rhe_below; lia.
    + change 0 with (0 * K). rewrite rhe_exact by exact HK. lia.
Qed.

Lemma iter_zc_left_zero K s m st :
  0 < K -> (m < length s)%nat -> nth m s 0 = 0 -> 2 * K <= st ->
  exists y, iter_zc K (Z.of_nat (length s) * K) s (Z.of_nat (S m) * K) (0 <? Z.of_nat (S m) * K) (st + K) true = Some y.
Proof.
  intros HK Hm Hz Hst. destruct (left_window K s m st HK Hm Hst) as (a & E & Ha).
  assert (0 <? Z.of_nat (S m) * K = true) as -> by nia.
  unfold iter_zc. rewrite E. unfold frK at 2. rewrite rhe_exact by exact HK.
  pose proof (between_last s (Z.to_nat (frK K a)) m ltac:(lia)) as Hin.
  rewrite Z2Nat.id, Hz in Hin by lia.
  unfold next_crossing, find_idx.
  destruct (find_last (fun x => x =? 0) (between s (frK K a) (Z.of_nat (S m))) 0%nat None) as [i|] eqn:Ef.
  - eexists; reflexivity.
  - exfalso. destruct (find_last_none _ _ _ _ Ef) as [_ Hall]. specialize (Hall 0 Hin). discriminate Hall.
Qed.

Theorem find_zc_zero_before_target K s k st :
  0 < K -> (1 <= k <= length s)%nat -> nth (k - 1) s 0 = 0 -> 2 * K <= st ->
  exists x, find_zc K s (Z.of_nat k * K) st = Ok x.
Proof.
  intros HK Hk Hz Hst. destruct k as [|m]; [lia|]. rewrite Nat.sub_succ, Nat.sub_0_r in Hz.
  unfold find_zc. assert (st <? 2 * K = false) as -> by lia.
  rewrite Nat.add_1_r. cbn [zc_loop].
  destruct (iter_zc_left_zero K s m st HK (proj2 Hk) Hz Hst) as [y ->].
  match goal with |- context [choose ?t (Some y) ?r] => destruct r as [z|] end; cbn [choose].
  - destruct (Z.abs (y - Z.of_nat (S m) * K) <=? Z.abs (z - Z.of_nat (S m) * K)); eexists; reflexivity.
  - eexists; reflexivity.
Qed.

Example find_zc_silence_somewhere : find_zc 4 [0; 0; 0; 0; 0; 0] 4 8 = Ok 4.
Proof. vm_compute. reflexivity. Qed.
