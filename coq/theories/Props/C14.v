(* Props/C14.v -- property theorems for C14 (dejitter, morph, alignBoundariesAcrossTiers). *)
From PraatIO Require Import Tier.TierModel Tier.CtorProofs Tier.AdjustProofs Textgrid.TgModel Textgrid.TgProofs.

(* the reference timestamps are a strictly increasing list *)
Theorem C14_reference_times_sorted_set l : StronglySorted Z.lt (zsort_uniq l).
Proof. exact (zsort_uniq_strict l). Qed.
Print Assumptions C14_reference_times_sorted_set.

(* nearest reference: a member, no other is closer, and the earlier one wins ties *)
Theorem C14_nearest x refs r :
  StronglySorted Z.lt refs -> nearest x refs = Some r ->
  In r refs
  /\ (forall r', In r' refs -> Z.abs (r - x) <= Z.abs (r' - x))
  /\ (forall r', In r' refs -> r' < r -> Z.abs (r - x) < Z.abs (r' - x)).
Proof. exact (nearest_spec x refs r). Qed.
Print Assumptions C14_nearest.

(* a time moves to its nearest reference iff it lies within d (inclusive), otherwise it is untouched *)
Theorem C14_moved_iff_within refs d x y :
  StronglySorted Z.lt refs -> snap refs d x = Ok y ->
  exists r, nearest x refs = Some r
    /\ (forall r', In r' refs -> Z.abs (r - x) <= Z.abs (r' - x))
    /\ y = (if Z.abs (x - r) <=? d then r else x).
Proof.
  intros Hs E. unfold snap in E. destruct (nearest x refs) as [r|] eqn:En; [|discriminate]. injection E as <-.
  exists r. repeat split. apply (nearest_spec x refs r Hs En).
Qed.
Print Assumptions C14_moved_iff_within.

(* adjusted times never cross *)
Theorem C14_adjustment_monotone refs d x1 x2 y1 y2 :
  StronglySorted Z.lt refs -> 0 <= d -> x1 <= x2 ->
  snap refs d x1 = Ok y1 -> snap refs d x2 = Ok y2 -> y1 <= y2.
Proof. intros Hs _. exact (snap_mono refs d x1 x2 y1 y2 Hs). Qed.
Print Assumptions C14_adjustment_monotone.

(* dejitter: when it returns, every entry is its own adjustment, in the same
   order, with the same labels and count, and the tier is well-formed
   (so a collapse cannot be returned: it raises) *)
Theorem C14_dejitter_keeps_count_order_labels t refs d t' :
  wf_itier t -> StronglySorted Z.lt refs -> 0 <= d ->
  dejitter_i t refs d = Ok t' ->
  Forall2 (fun i j => snap_entry refs d i = Ok j) (ients t) (ients t')
  /\ map ilabel (ients t') = map ilabel (ients t)
  /\ length (ients t') = length (ients t)
  /\ wf_itier t'.
Proof. intros W Hr _. exact (dejitter_i_spec t refs d t' W Hr). Qed.
Print Assumptions C14_dejitter_keeps_count_order_labels.

Theorem C14_empty_reference_raises d x : snap [] d x = Err PyError.
Proof. reflexivity. Qed.
Print Assumptions C14_empty_reference_raises.

Theorem C14_morph_entries t g filt t' :
  wf_itier t -> Forall pos (ients g) -> morph_i t g filt = Ok t' ->
  ients t' = morph_go filt 0 (ients t) (ients g).
Proof. exact (morph_i_entries t g filt t'). Qed.
Print Assumptions C14_morph_entries.

Theorem C14_morph_labels filt cum src tgt :
  length src = length tgt -> map ilabel (morph_go filt cum src tgt) = map ilabel src.
Proof. exact (morph_go_labels filt cum src tgt). Qed.
Print Assumptions C14_morph_labels.

Theorem C14_morph_durations (filt : text -> bool) cum src tgt :
  length src = length tgt ->
  Forall2 (fun (sg : (interval * interval)%type) r =>
             iend r - istart r = if filt (ilabel (fst sg)) then iend (snd sg) - istart (snd sg)
                                 else iend (fst sg) - istart (fst sg))
          (combine src tgt) (morph_go filt cum src tgt).
Proof. exact (morph_go_durations filt cum src tgt). Qed.
Print Assumptions C14_morph_durations.

(* gaps between consecutive intervals and the first start are preserved *)
Theorem C14_morph_gaps filt cum src tgt pe :
  length src = length tgt ->
  gaps_of (pe + cum) (morph_go filt cum src tgt) = gaps_of pe src.
Proof. exact (morph_go_gaps filt cum src tgt pe). Qed.
Print Assumptions C14_morph_gaps.

Theorem C14_morph_trailing_gap t g filt t' :
  morph_i t g filt = Ok t' ->
  exists nl ol, last_opt (morph_go filt 0 (ients t) (ients g)) = Some nl /\ last_opt (ients t) = Some ol
    /\ (imax t + (iend nl - iend ol)) - iend nl = imax t - iend ol.
Proof.
  unfold morph_i. destruct (negb _); [discriminate|].
  destruct (last_opt (morph_go _ _ _ _)) as [nl|]; [|discriminate].
  destruct (last_opt (ients t)) as [ol|]; [|discriminate]. intros _. exists nl, ol. repeat split; lia.
Qed.
Print Assumptions C14_morph_trailing_gap.

Theorem C14_morph_length_mismatch t g filt :
  length (ients t) <> length (ients g) -> morph_i t g filt = Err SafeZipException.
Proof.
  intro H. unfold morph_i. destruct (Nat.eqb_spec (length (ients t)) (length (ients g))); [contradiction|reflexivity].
Qed.
Print Assumptions C14_morph_length_mismatch.

(* praatio_scripts.alignBoundariesAcrossTiers: the textgrid keeps its tiers under the same names in the
   same order; the reference tier is untouched and every other tier is that tier's own dejitter
   against the reference tier's timestamps -- selected by its NAME, whatever other names look like *)
Theorem C14_align_tierwise g n d g' :
  NoDup (names g) -> tg_align g n d = Ok g' ->
  exists ref, find_tier n (tiers g) = Some ref
  /\ Forall2 (aligned n (timestamps_of ref) d) (tiers g) (tiers g').
Proof. exact (tg_align_tierwise g n d g'). Qed.
Print Assumptions C14_align_tierwise.
