(* Props/C01.v -- TextGrid save/open round trip: the text layer.
   Property theorems only; proofs are in the IO files imported below. *)
From Coq Require Import String.
From PraatIO Require Import IO.IoModel IO.CodecProofs IO.ShortFileProofs IO.ShortChunkProofs IO.LongFileProofs IO.LongStyleProofs IO.LongChunkProofs IO.JsonDict IO.NearInt.
Open Scope Z_scope.

(* un-doubling the doubled form is the identity, for every label and name *)
Theorem C01_unescape_escape l : unesc (esc l) = l.
Proof. exact (unesc_esc l). Qed.
Print Assumptions C01_unescape_escape.

(* doubling commutes with trimming (neither adds nor removes white space) *)
Theorem C01_strip_escape l : strip (esc l) = esc (strip l).
Proof. exact (strip_esc l). Qed.
Print Assumptions C01_strip_escape.

(* short form: the text-row reader, started on a written label or name, stops exactly at
   the closing quote and returns the label -- for EVERY label: quotes, runs of quotes at
   the start, middle or end, newlines, '=' and digits included *)
Theorem C01_short_text_row l rest : fetch_text_row (quoted l ++ 10%N :: rest) = Ok (strip l, rest).
Proof. exact (fetch_text_row_quoted l rest). Qed.
Print Assumptions C01_short_text_row.

(* short form: a number row is read back as the token that was written *)
Theorem C01_short_number_row t rest : plain_tok t = true -> fetch_row (t ++ 10%N :: rest) = Ok (t, rest).
Proof. exact (fetch_row_plain t rest). Qed.
Print Assumptions C01_short_number_row.

(* short form: the entry loop over the written entries of an interval tier block returns
   exactly those entries, in order, any number of them *)
Theorem C01_short_interval_block tab ents fuel :
  forallb is_DIb ents = true -> forallb (times_plain tab) ents = true -> (length ents < fuel)%nat ->
  short_intervals fuel (flat_map (short_entry tab) ents) = map (rd_entry tab) ents.
Proof. exact (short_intervals_printed tab ents fuel). Qed.
Print Assumptions C01_short_interval_block.

Theorem C01_short_point_block tab ents fuel :
  forallb (fun e => negb (is_DIb e)) ents = true -> forallb (times_plain tab) ents = true -> (length ents < fuel)%nat ->
  short_points fuel (flat_map (short_entry tab) ents) = map (rd_entry tab) ents.
Proof. exact (short_points_printed tab ents fuel). Qed.
Print Assumptions C01_short_point_block.

(* long form: the greedy quoted group of the text / mark field of a written entry is the
   escaped label, and un-doubling it gives the label back, for every label *)
Theorem C01_long_text_field l tail :
  forallb (fun c => negb (isq c)) tail = true -> ws_to_eol tail = true ->
  match quoted_group true (esc l ++ 34%N :: tail) [] None with
  | Some g => unesc (strip g) = strip l
  | None => False
  end.
Proof. exact (long_text_field_roundtrip l tail). Qed.
Print Assumptions C01_long_text_field.

(* long form: the single-line group used for tier names *)
Theorem C01_long_name_field body tail :
  forallb (fun c => negb (c =? 10)%N) body = true ->
  forallb (fun c => negb (isq c)) tail = true -> ws_to_eol tail = true ->
  quoted_group false (body ++ 34%N :: tail) [] None = Some body.
Proof. intros A B C. exact (quoted_group_line body tail [] None A B C). Qed.
Print Assumptions C01_long_name_field.

(* long form: one written entry block is read back as its times and label, for every token and label *)
Theorem C01_long_interval_block j N1 N2 lab trail :
  idx j = true -> numshape N1 = true -> numshape N2 = true -> allsp trail = true ->
  parse_long_interval (ichunk j N1 N2 lab ++ trail) = Ok (RI N1 N2 (strip lab)).
Proof. exact (parse_ichunk_s (T "]:") TAB3 (T " ") (T " ") j N1 N2 lab trail eq_refl eq_refl eq_refl eq_refl). Qed.
Print Assumptions C01_long_interval_block.

Theorem C01_long_point_block j N1 lab trail :
  idx j = true -> numshape N1 = true -> allsp trail = true ->
  parse_long_point true (pchunk j N1 lab ++ trail) = Ok (RP N1 (strip lab)).
Proof. exact (parse_pchunk_s (T "]:") TAB3 (T " ") (T " ") j N1 lab trail eq_refl eq_refl eq_refl eq_refl). Qed.
Print Assumptions C01_long_point_block.

(* short form, whole file: parsing what the writer printed returns the textgrid span and, for
   every tier in order, its type, name, span and entries (times as the written tokens, labels and
   names character for character) -- for any number of tiers and entries and ANY labels and names,
   under the decidable side condition chunk_ok that the two class keywords occur in the text only
   where tiers start (labels such as "IntervalTier" in quotes are what breaks it: outside the
   property's quantifier) *)
Theorem C01_short_file_roundtrip tab g :
  dg_tiers g <> [] -> chunk_ok tab g = true ->
  forallb (fun c => negb (c =? 13)%N) (print_short tab g) = true ->
  plain_tok (num_str (lookup tab (dg_xmin g))) = true -> plain_tok (num_str (lookup tab (dg_xmax g))) = true ->
  forallb (tier_ok tab) (dg_tiers g) = true ->
  parse_short (print_short tab g) = Ok (rd_tg tab g).
Proof. exact (parse_short_printed tab g). Qed.
Print Assumptions C01_short_file_roundtrip.

(* ... and that side condition is proved, it is not a hypothesis, whenever no name or label contains one of the two
   class words: the short form round-trips whole files with no evaluated hypothesis left -- any number
   of tiers and entries, labels with quotes, doubled quotes, newlines, '=', digits *)
Theorem C01_short_file_roundtrip_unconditional tab g :
  dg_tiers g <> [] ->
  forallb (fun c => negb (c =? 13)%N) (print_short tab g) = true ->
  plain_tok (num_str (lookup tab (dg_xmin g))) = true -> plain_tok (num_str (lookup tab (dg_xmax g))) = true ->
  forallb (tier_ok tab) (dg_tiers g) = true -> forallb tier_free (dg_tiers g) = true ->
  parse_short (print_short tab g) = Ok (rd_tg tab g).
Proof. intros NE CR A B TK TF. apply parse_short_printed; try assumption. now apply chunk_ok_free. Qed.
Print Assumptions C01_short_file_roundtrip_unconditional.

(* the chunking itself: cutting the written text at the class keywords finds the header and the tier blocks *)
Theorem C01_short_chunking tab g :
  plain_tok (num_str (lookup tab (dg_xmin g))) = true -> plain_tok (num_str (lookup tab (dg_xmax g))) = true ->
  forallb (tier_ok tab) (dg_tiers g) = true -> forallb tier_free (dg_tiers g) = true ->
  chunk_ok tab g = true.
Proof. exact (chunk_ok_free tab g). Qed.
Print Assumptions C01_short_chunking.

(* long form, whole file: the regex reader applied to what the long writer printed returns the
   textgrid span and, for every tier in order, its type, name, span and entries -- for any number of
   tiers and entries and ANY labels (quotes, doubled quotes, newlines, '=', digits, field look-alikes
   such as `xmin = 5`), under the decidable side condition lfile_ok: cutting the text at `item [`,
   `intervals [`, `points [` finds exactly the writer's blocks (a label containing such a keyword is
   what breaks it: outside the property's quantifier), names are single-line and numbers are printed
   as digits/dots with an optional exponent.  The number, name and text fields inside a block are
   located by proof, not by hypothesis: no field look-alike inside a name or an earlier field can
   be matched first. *)
Theorem C01_long_file_roundtrip tab g :
  lfile_ok tab g = true ->
  forallb (fun c => negb (c =? 13)%N) (print_long tab g) = true ->
  parse_long true (print_long tab g) = Ok (rd_tg_long tab g).
Proof. exact (parse_long_printed tab g). Qed.
Print Assumptions C01_long_file_roundtrip.

(* ... and for the long form, too, the side condition is proved whenever names are single-line, no name or
   label contains one of the words item, intervals, points, IntervalTier, and numbers are digits/dots with
   an optional exponent: re.split at `item [` finds the header and the tier blocks, re.split at
   `intervals [` / `points [` inside a block finds its head and its entries (the word "intervals" in
   "intervals: size" is not followed by a bracket), and a point tier's block does not contain
   class = "IntervalTier" *)
Theorem C01_long_chunking tab g : fileL_ok tab g = true -> lfile_ok tab g = true.
Proof. exact (lfile_ok_free tab g). Qed.
Print Assumptions C01_long_chunking.

Theorem C01_long_file_roundtrip_unconditional tab g :
  fileL_ok tab g = true ->
  forallb (fun c => negb (c =? 13)%N) (print_long tab g) = true ->
  parse_long true (print_long tab g) = Ok (rd_tg_long tab g).
Proof. intros H CR. apply parse_long_printed; [now apply lfile_ok_free|exact CR]. Qed.
Print Assumptions C01_long_file_roundtrip_unconditional.

(* hence both text forms of one textgrid with trimmed names are read back as the same data *)
Theorem C01_long_short_same_data tab g :
  forallb (fun t => strippedb (d_name t)) (dg_tiers g) = true ->
  rd_tg_long tab g = rd_tg tab g.
Proof. exact (long_short_agree tab g). Qed.
Print Assumptions C01_long_short_same_data.

(* the plain json format: its two dictionary conversions (tiers keyed by name, one span for the whole
   textgrid) lose nothing but the per-tier spans when tier names are unique -- names, order, types and
   entries come back, every tier with the textgrid's span (the property's one exemption); and nothing
   at all when every tier already has that span *)
Theorem C01_json_dictionary_roundtrip g :
  NoDup (map d_name (dg_tiers g)) -> json_up (json_down g) = respan_all g.
Proof. exact (json_up_down g). Qed.
Print Assumptions C01_json_dictionary_roundtrip.

Theorem C01_json_dictionary_roundtrip_exact g :
  NoDup (map d_name (dg_tiers g)) ->
  forallb (fun t => (d_xmin t =? dg_xmin g) && (d_xmax t =? dg_xmax g)) (dg_tiers g) = true ->
  json_up (json_down g) = g.
Proof. exact (json_up_down_exact g). Qed.
Print Assumptions C01_json_dictionary_roundtrip_exact.

(* the reader before the repair of F2 did not un-double point marks: witness *)
Theorem C01_long_point_mark_legacy_refuted :
  exists el, parse_long_point false el = Ok (RP [49%N] [34%N; 34%N])
          /\ parse_long_point true el = Ok (RP [49%N] [34%N]).
Proof.
  exists (T "]:" ++ [10%N] ++ T "number = 1 " ++ [10%N] ++ T "mark = """""""" " ++ [10%N]).
  vm_compute. split; reflexivity.
Qed.
Print Assumptions C01_long_point_mark_legacy_refuted.

(* non-vacuity of the whole-file theorem: quotes, doubled quotes, newlines, '=' and digits in labels and a name *)
Example C01_short_file_example :
  let tab := [(0, mkNum true (T "0") (T "0.0")); (1, mkNum false (T "1") (T "1.5")); (2, mkNum false (T "2") (T "2.25"))]%Z in
  let g := mkDTG 0 2 [mkDT true (T "a ""b"" = 3") 0 2 [DI 0 1 [34%N; 34%N; 10%N; 61%N; 55%N]; DI 1 2 []];
                      mkDT false (T "p") 0 2 [DP 1 [34%N]]]%Z in
  dg_tiers g <> [] /\ chunk_ok tab g = true /\ forallb (fun c => negb (c =? 13)%N) (print_short tab g) = true
  /\ forallb (tier_ok tab) (dg_tiers g) = true /\ parse_short (print_short tab g) = Ok (rd_tg tab g).
Proof.
  intros tab g.
  assert (dg_tiers g <> []) as NE by discriminate.
  assert (forallb (fun c => negb (c =? 13)%N) (print_short tab g) = true) as CR by (vm_compute; reflexivity).
  assert (forallb (tier_ok tab) (dg_tiers g) = true) as TK by (vm_compute; reflexivity).
  assert (chunk_ok tab g = true) as CH by (apply chunk_ok_free; vm_compute; reflexivity).
  exact (conj NE (conj CH (conj CR (conj TK (parse_short_printed tab g NE CH CR eq_refl eq_refl TK))))).
Qed.

Example C01_long_free_example :
  let tab := [(0, mkNum true (T "0") (T "0.0")); (1, mkNum false (T "1") (T "1.5")); (2, mkNum false (T "2") (T "2.25e-05"))]%Z in
  let g := mkDTG 0 2 [mkDT true (T "a ""b"" xmin = 3") 0 2 [DI 0 1 [34%N; 34%N; 10%N; 61%N; 55%N]; DI 1 2 (T "xmax = 7 ")];
                      mkDT false (T "p") 0 2 [DP 1 [34%N]]]%Z in
  fileL_ok tab g = true.
Proof. vm_compute. reflexivity. Qed.

Example C01_long_file_example :
  let tab := [(0, mkNum true (T "0") (T "0.0")); (1, mkNum false (T "1") (T "1.5")); (2, mkNum false (T "2") (T "2.25e-05"))]%Z in
  let g := mkDTG 0 2 [mkDT true (T "a ""b"" xmin = 3") 0 2 [DI 0 1 [34%N; 34%N; 10%N; 61%N; 55%N]; DI 1 2 (T "xmax = 7 ")];
                      mkDT false (T "p") 0 2 [DP 1 [34%N]]]%Z in
  lfile_ok tab g = true /\ forallb (fun c => negb (c =? 13)%N) (print_long tab g) = true
  /\ parse_long true (print_long tab g) = Ok (rd_tg_long tab g).
Proof.
  intros tab g. pose proof (lfile_ok_free tab g C01_long_free_example) as OK.
  assert (forallb (fun c => negb (c =? 13)%N) (print_long tab g) = true) as CR by (vm_compute; reflexivity).
  exact (conj OK (conj CR (parse_long_printed tab g OK CR))).
Qed.

(* non-vacuity *)
Example C01_example :
  fetch_text_row (quoted [34%N; 97%N; 34%N; 34%N; 10%N; 61%N; 34%N] ++ 10%N :: [49%N; 10%N])
  = Ok ([34%N; 97%N; 34%N; 34%N; 10%N; 61%N; 34%N], [49%N; 10%N]).
Proof. vm_compute. reflexivity. Qed.

(* REFUTED for times far from 0 (known finding F23): "a value within 1e-14 (relative) of an integer may come back as that
   integer" is harmless only while no two times of a textgrid share such an integer.  On exact rationals: the two
   different times 10^13 + 1 + 1/32 and 10^13 + 1 + 2/32 are both written as 10000000000001, so an interval between them is
   written with equal ends (replayed on the implementation by corpus/C01/F23-*.json: openTextgrid raises) *)
Theorem C01_near_integer_collapse_refuted :
  exists d x y, 0 < d /\ x < y /\ written_as_int x d = written_as_int y d /\ written_as_int x d <> None.
Proof.
  exists 32, ((10 ^ 13 + 1) * 32 + 1), ((10 ^ 13 + 1) * 32 + 2).
  destruct near_int_collapse as (H1 & H2 & H3). split; [reflexivity|]. split; [exact H1|]. split; [now rewrite H2, H3|rewrite H2; discriminate].
Qed.
Print Assumptions C01_near_integer_collapse_refuted.
