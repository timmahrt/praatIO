(* Props/C12.v -- property theorems for C12 (Textgrid as an ordered, uniquely named map). *)
From PraatIO Require Import Textgrid.TgModel Textgrid.TgProofs Tier.CtorProofs Tier.CropProofs Tier.TierModel
  Textgrid.TgSpliceProofs Textgrid.TgValidProofs.
Open Scope Z_scope.

(* whenever a mutator succeeds, the tier list is what the plain ordered-list model says *)
Theorem C12_refines_list_model g o :
  fst (tg_step g o) = None -> tiers (snd (tg_step g o)) = spec_step (tiers g) o.
Proof. destruct (tg_step g o) as [oe g'] eqn:E. cbn. intros ->. apply (tg_step_ok _ _ _ E). Qed.
Print Assumptions C12_refines_list_model.

(* names are unique in every reachable textgrid *)
Theorem C12_names_unique ops a b : NoDup (names (tg_run (mkTG [] a b) ops)).
Proof. apply (tg_run_inv ops). split; constructor. Qed.
Print Assumptions C12_names_unique.

Theorem C12_invariant_along_histories ops g : tg_inv g -> tg_inv (tg_run g ops).
Proof. exact (tg_run_inv ops g). Qed.
Print Assumptions C12_invariant_along_histories.

Theorem C12_duplicate_rejected g t idx m :
  In (tname t) (names g) -> add_step g t idx m = (Err TierNameExistsError, g).
Proof. intro H. unfold add_step. apply has_name_In in H. now rewrite H. Qed.
Print Assumptions C12_duplicate_rejected.

Theorem C12_span_only_widens g o : tg_inv g -> span_le g (snd (tg_step g o)).
Proof.
  intro Hi. destruct (tg_step g o) as [[e|] g'] eqn:E; cbn; [|apply (tg_step_ok _ _ _ E)].
  rewrite (tg_step_atomic _ _ _ _ Hi E). apply span_le_refl.
Qed.
Print Assumptions C12_span_only_widens.

(* removing a tier and inserting one at its old index puts it exactly where it was *)
Theorem C12_reinsert_at_index n l k old :
  index_of n l = Some k -> find_tier n l = Some old ->
  py_insert (remove_named n l) (Z.of_nat k) old = l.
Proof.
  intros Ei Ef. destruct (find_tier_split _ _ _ Ef) as (l1 & l2 & -> & N & NI).
  destruct (split_lookup n l1 old l2 N NI) as (_ & I & ->). rewrite I in Ei. injection Ei as <-.
  apply py_insert_app_length.
Qed.
Print Assumptions C12_reinsert_at_index.

(* Textgrid.crop acts tier-wise: same names, same order, each tier its own crop *)
Theorem C12_crop_tierwise g a b m r g' :
  NoDup (names g) -> tg_crop g a b m r = Ok g' ->
  names g' = names g /\ Forall2 (fun t t' => crop_tier t a b m r = Ok t') (tiers g) (tiers g').
Proof. intros _. exact (tg_crop_tierwise g a b m r g'). Qed.
Print Assumptions C12_crop_tierwise.

(* ... and for strict / truncated every tier shares the textgrid's span *)
Theorem C12_crop_tiers_share_span g a b m r g' :
  m <> Lax -> NoDup (names g) -> Forall (fun t => match t with TI t => wf_itier t | TP _ => True end) (tiers g) ->
  tg_crop g a b m r = Ok g' ->
  Forall (fun t => match t with
                   | TI t => imin t = (if r then 0 else a) /\ imax t = (if r then b - a else b)
                   | TP t => pmin t = (if r then 0 else a) /\ pmax t = (if r then b - a else b) end) (tiers g').
Proof. intros Hm _. exact (tg_crop_spans g a b m r g' Hm). Qed.
Print Assumptions C12_crop_tiers_share_span.

(* Textgrid.eraseRegion: same names, same order, each tier = that tier's own eraseRegion(truncate);
   the textgrid's own span shrinks by exactly the region's length *)
Theorem C12_erase_tierwise g a b s g' :
  NoDup (names g) -> tg_erase g a b s = Ok g' ->
  names g' = names g
  /\ Forall2 (fun t t' => erase_tier t a b s = Ok t') (tiers g) (tiers g')
  /\ tgmax g' = (if s then match tgmax g with Some m => Some (m - (b - a)) | None => None end else tgmax g).
Proof. exact (tg_erase_tierwise g a b s g'). Qed.
Print Assumptions C12_erase_tierwise.

(* Textgrid.insertSpace: same names, same order, each tier = that tier's own insertSpace *)
Theorem C12_space_tierwise g s d m g' :
  NoDup (names g) -> tg_space g s d m = Ok g' ->
  names g' = names g /\ Forall2 (fun t t' => space_tier t s d m = Ok t') (tiers g) (tiers g').
Proof. exact (tg_space_tierwise g s d m g'). Qed.
Print Assumptions C12_space_tierwise.

(* Textgrid.mergeTiers: the unselected tiers are carried over unchanged and in their order (or dropped
   when preserveOtherTiers is off), followed by at most one interval tier and one point tier, each
   present exactly when a tier of that kind was selected; a name that is not a tier's raises *)
Theorem C12_merge_tiers_shape g sel keep g' :
  tg_merge g sel keep = Ok g' ->
  let names_sel := match sel with Some l => l | None => names g end in
  exists ts it pt,
    mapM (fun n => match find_tier n (tiers g) with Some t => Ok t | None => Err PyError end) names_sel = Ok ts
    /\ tiers g' = (if keep then filter (fun t => negb (name_in (tname t) names_sel)) (tiers g) else [])
                  ++ match it with Some x => [TI x] | None => [] end ++ match pt with Some x => [TP x] | None => [] end
    /\ (it = None <-> filter_map (fun t => match t with TI x => Some x | TP _ => None end) ts = [])
    /\ (pt = None <-> filter_map (fun t => match t with TP x => Some x | TI _ => None end) ts = []).
Proof.
  unfold tg_merge. cbv zeta. intro H. apply bind_ok in H as (ts & M & H). apply bind_ok in H as (it & FI & H).
  apply bind_ok in H as (pt & FP & H). exists ts, it, pt. split; [exact M|]. split; [exact (add_all_inv _ _ _ _ H)|].
  split; [exact (fold_first_none union_i _ _ FI)|exact (fold_first_none union_p _ _ FP)].
Qed.
Print Assumptions C12_merge_tiers_shape.

(* eraseRegion and insertSpace return VALID textgrids.  tg_valid mn mx g: the textgrid spans [mn, mx], names are unique,
   every tier is well-formed and has exactly that span.  Erasing a region inside the span gives a textgrid valid for
   [mn, mx] (without shrinking) or [mn, mx - (b - a)] (with) ... *)
Theorem C12_erase_region_valid mn mx g a b s g' : tg_valid mn mx g -> mn <= a -> a < b -> b <= mx ->
  tg_erase g a b s = Ok g' -> tg_valid mn (if s then mx - (b - a) else mx) g'.
Proof. exact (tg_erase_valid mn mx g a b s g'). Qed.
Print Assumptions C12_erase_region_valid.

(* ... inserting d >= 0 at or after the start gives one valid for [mn, mx + d], in every collision mode that returns ... *)
Theorem C12_insert_space_valid mn mx g s d m g' : tg_valid mn mx g -> mn <= mx -> 0 <= d -> mn <= s ->
  tg_space g s d m = Ok g' -> tg_valid mn (mx + d) g'.
Proof. exact (tg_space_valid mn mx g s d m g'). Qed.
Print Assumptions C12_insert_space_valid.

(* ... and on such a textgrid validate() is True *)
Theorem C12_valid_validates mn mx g : tg_valid mn mx g -> tg_validate g = true.
Proof. exact (tg_valid_validates mn mx g). Qed.
Print Assumptions C12_valid_validates.
