(* Props/C11.v -- property theorems for C11 (insertEntry / deleteEntry). *)
From PraatIO Require Import Tier.TierModel Tier.CtorProofs Tier.CropProofs Tier.InsertProofs Tier.Interval Tier.InsertPProofs
     Tier.WfProofs.

(* the model of IntervalTier.insertEntry (crop-lax matches, delete, append,
   sort, span update) equals the collision-policy specification on every
   well-formed tier, for every entry and mode *)
Theorem C11_insert_meets_policy t e mode : wf_itier t -> insert_i t e mode = insert_spec t (strip_i e) mode.
Proof. exact (insert_i_public_spec t e mode). Qed.
Print Assumptions C11_insert_meets_policy.

(* afterwards the entries are again sorted, positive, pairwise non-overlapping
   and inside the (just enough grown) span *)
Theorem C11_insert_keeps_order_and_span t e mode t' :
  wf_itier t -> insert_i_core t e mode = Ok t' ->
  wf_ients (ients t') /\ Forall (in_span (imin t') (imax t')) (ients t').
Proof.
  intros Hwf E. rewrite (insert_i_spec _ _ _ Hwf) in E.
  destruct (insert_spec_wf _ _ _ _ Hwf E) as (W & S & _). auto.
Qed.
Print Assumptions C11_insert_keeps_order_and_span.

(* deleting the matches of a filter from a wf list leaves exactly the others *)
Theorem C11_replace_removes_exactly_matches p l :
  wf_ients l -> delete_all (filter p l) l = Ok (filter (fun i => negb (p i)) l).
Proof. exact (delete_all_filter p l). Qed.
Print Assumptions C11_replace_removes_exactly_matches.

(* merge: one entry over the joint extent, labels joined in time order *)
Theorem C11_merge_entry e ms : merged_entry (isorti (ms ++ [e])) = Ok (joint_entry e ms).
Proof. exact (merged_entry_joint e ms). Qed.
Print Assumptions C11_merge_entry.

Theorem C11_sorted_insert_position l x :
  StronglySorted (lebP ileb) l -> isorti (l ++ [x]) = insert ileb x l.
Proof. exact (isorti_snoc l x). Qed.
Print Assumptions C11_sorted_insert_position.

Theorem C11_span_grows_just_enough t e mode t' :
  wf_itier t -> insert_i_core t e mode = Ok t' ->
  imin t' = Z.min (imin t) (istart e) /\ imax t' = Z.max (imax t) (iend e).
Proof.
  intros Hwf. rewrite (insert_i_spec _ _ _ Hwf). unfold insert_spec.
  destruct (iend e <=? istart e); [discriminate|].
  destruct (filter _ (ients t)); [intros [= <-]; auto|].
  destruct mode; try discriminate; intros [= <-]; auto.
Qed.
Print Assumptions C11_span_grows_just_enough.

Theorem C11_delete_absent_raises t e :
  ~ In e (ients t) -> delete_i t e = Err PyError.
Proof.
  intro H. unfold delete_i.
  assert (remove_first interval_eqb e (ients t) = None) as ->; [|reflexivity].
  induction (ients t) as [|i l IH]; [reflexivity|]. simpl.
  destruct (interval_eqb i e) eqn:E.
  - apply interval_eqb_eq in E. subst. exfalso. apply H. left; reflexivity.
  - rewrite IH; [reflexivity|]. intro Hi. apply H. right; exact Hi.
Qed.
Print Assumptions C11_delete_absent_raises.

(* PointTier.insertEntry against the same policy; for points a collision is a point at the same time *)

(* no point at that time: the (trimmed) entry is added and nothing else changes, in every mode *)
Theorem C11_point_insert_free t e m t' : collides_with t e = None -> insert_p t e m = Ok t' ->
  Permutation.Permutation (pents t') (strip_p e :: pents t) /\ pname t' = pname t.
Proof.
  unfold collides_with. intros C H. destruct (insert_p_inv _ _ _ _ H) as (new & rest & -> & N & _ & _ & _ & _ & K).
  rewrite C in K. destruct K as [-> ->]. split; [apply isort_snoc_perm|exact N].
Qed.
Print Assumptions C11_point_insert_free.

Theorem C11_point_insert_error t e old : collides_with t e = Some old -> insert_p t e IError = Err CollisionError.
Proof. unfold collides_with, insert_p, insert_p_core. change (ptime (strip_p e)) with (ptime e). now intros ->. Qed.
Print Assumptions C11_point_insert_error.

(* 'replace' removes exactly the colliding point and inserts the new one *)
Theorem C11_point_insert_replace t e old t' : collides_with t e = Some old -> insert_p t e IReplace = Ok t' ->
  Permutation.Permutation (old :: pents t') (strip_p e :: pents t).
Proof. intros C H. destruct (insert_p_collide _ _ _ _ _ C H) as (new & P & [[_ ->]|[? _]]); [exact P|discriminate]. Qed.
Print Assumptions C11_point_insert_replace.

(* 'merge' replaces it by one point at that time labelled old-new *)
Theorem C11_point_insert_merge t e old t' : collides_with t e = Some old -> insert_p t e IMerge = Ok t' ->
  Permutation.Permutation (old :: pents t') (mkP (ptime e) (join DASH [plabel old; strip (plabel e)]) :: pents t).
Proof. intros C H. destruct (insert_p_collide _ _ _ _ _ C H) as (new & P & [[? _]|[_ ->]]); [discriminate|exact P]. Qed.
Print Assumptions C11_point_insert_merge.

(* afterwards the tier is in time order and its span has grown just enough to contain the new time (F7) *)
Theorem C11_point_insert_order_and_span t e m t' : wf_ptier t -> pmin t <= pmax t -> insert_p t e m = Ok t' ->
  wf_ptier t' /\ pmin t' = Z.min (pmin t) (ptime e) /\ pmax t' = Z.max (pmax t) (ptime e).
Proof. intros W _ H. split; [exact (insert_p_wf _ _ _ _ W H)|exact (insert_p_span _ _ _ _ W H)]. Qed.
Print Assumptions C11_point_insert_order_and_span.
