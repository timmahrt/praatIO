(* Props/C16.v -- in-memory audio edits are sample-exact and sample-aligned.
   The proofs are in Audio/WavProofs.v; a theorem that follows from its lemmas in a few lines is proved here. *)
From Coq Require Import ZArith Lia.
From PraatIO Require Import Audio.WavModel Audio.WavProofs.
Open Scope Z_scope.

(* samples -> bytes -> samples is the identity for every width and every value of the range *)
Theorem C16_samples_bytes_samples w l : (0 < w)%nat -> Forall (in_range w) l ->
  convert_from_bytes w (encode_all w l) = Ok l.
Proof. exact (convert_roundtrip w l). Qed.
Print Assumptions C16_samples_bytes_samples.

(* bytes -> samples -> bytes is the identity on any whole number of samples *)
Theorem C16_bytes_samples_bytes w n bs : (0 < w)%nat -> length bs = (n * w)%nat -> Forall is_byte bs ->
  encode_all w (decode_all w bs) = bs.
Proof. exact (encode_decode_all w n bs). Qed.
Print Assumptions C16_bytes_samples_bytes.

(* every time maps to a byte offset that is a whole number of samples *)
Theorem C16_index_sample_aligned w r t : (Z.of_nat w | index_at r w t).
Proof. unfold index_at. apply Z.divide_factor_r. Qed.
Print Assumptions C16_index_sample_aligned.

(* insert / deleteSegment / replaceSegment / concatenate / getSubwav on the byte string are the
   same edits on the list of samples: exactly the samples between the nearest sample indices
   are removed, returned or displaced, every other sample keeps its value and order *)
Theorem C16_edit_is_sample_exact w r s o :
  w_frames (run_wop (mkWav (encode_all w s) w r) o) = encode_all w (s_samples (run_sop (mkSW s r) o)).
Proof. exact (f_equal w_frames (run_wop_encoded w r s o)). Qed.
Print Assumptions C16_edit_is_sample_exact.

(* ... after any sequence of edits *)
Theorem C16_history_is_sample_exact w r ops s :
  w_frames (fold_left run_wop ops (mkWav (encode_all w s) w r))
  = encode_all w (s_samples (fold_left run_sop ops (mkSW s r))).
Proof. exact (f_equal w_frames (history_refines w r ops s)). Qed.
Print Assumptions C16_history_is_sample_exact.

(* getSamples returns exactly the samples between the sample indices nearest to the two times *)
Theorem C16_get_samples w r s t0 t1 : (0 < w)%nat -> Forall (in_range w) s ->
  wav_get_samples (mkWav (encode_all w s) w r) t0 t1 = Ok (sw_get (mkSW s r) t0 t1).
Proof. exact (get_samples_spec w r s t0 t1). Qed.
Print Assumptions C16_get_samples.

(* duration = sample count / frame rate *)
Theorem C16_duration w r s :
  fst (wav_duration (mkWav (encode_all w s) w r)) * r = Z.of_nat (length s) * snd (wav_duration (mkWav (encode_all w s) w r)).
Proof. simpl. rewrite encode_all_length, Nat2Z.inj_mul. ring. Qed.
Print Assumptions C16_duration.

(* inserting a stretch at t and deleting [t, t + its duration] restores the original, for every
   time in [0, duration] that is not exactly half-way between two samples *)
Theorem C16_insert_delete_identity_partial rate s t f : 0 < rate -> 0 < snd t ->
  2 * ((fst t * rate) mod snd t) <> snd t ->
  0 <= frame_at rate t <= Z.of_nat (length s) ->
  sw_delete (sw_insert (mkSW s rate) t f) t (plus_samples rate t (Z.of_nat (length f))) = mkSW s rate.
Proof. exact (insert_delete_identity rate s t f). Qed.
Print Assumptions C16_insert_delete_identity_partial.

(* the full statement (all times) is false of the faithful model: exact ties under
   round-half-even -- the recorded finding F20 *)
Theorem C16_insert_delete_identity_refuted :
  exists rate s t f, 0 < rate /\ 0 < snd t /\ 0 <= frame_at rate t <= Z.of_nat (length s)
    /\ sw_delete (sw_insert (mkSW s rate) t f) t (plus_samples rate t (Z.of_nat (length f))) <> mkSW s rate.
Proof. exists 2, [10; 20; 30], (1, 4), [7]. vm_compute. repeat split; discriminate. Qed.
Print Assumptions C16_insert_delete_identity_refuted.

(* before the repair of F13 the offset was rounded to a byte *)
Theorem C16_legacy_index_refuted : exists rate w t, ~ (Z.of_nat w | index_at_legacy rate w t).
Proof.
  exists 10, 2%nat, (23, 100). intros (k & H).
  assert (index_at_legacy 10 2 (23, 100) = 5) as E by (vm_compute; reflexivity).
  rewrite E in H. change (Z.of_nat 2) with 2 in H. lia.
Qed.
Print Assumptions C16_legacy_index_refuted.

Example C16_example :
  w_frames (run_wop (mkWav (encode_all 2 [1; -2; 300; -32768]) 2 8) (WDelete (3, 16) (5, 8)))
  = encode_all 2 [1; -2] /\ Forall (in_range 2) [1; -2; 300; -32768].
Proof. split; [vm_compute; reflexivity|]. repeat (constructor; [unfold in_range, pow256; simpl; lia|]). constructor. Qed.
