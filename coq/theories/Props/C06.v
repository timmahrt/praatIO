(* Props/C06.v -- property theorems for C06 (crop). *)
From PraatIO Require Import Tier.TierModel Tier.CtorProofs Tier.CropProofs.

(* the crop kernel keeps exactly: strict = wholly inside, lax = overlapping
   (unchanged), truncated = overlapping parts clipped to the window *)
Theorem C06_kernel_keeps_exactly a b mode l :
  Forall pos l -> a < b -> giii a b mode l = crop_spec_ents a b mode l.
Proof. intros Hp _. exact (giii_spec a b mode l Hp). Qed.
Print Assumptions C06_kernel_keeps_exactly.

(* the whole operation equals its specification on every well-formed tier,
   every window (degenerate ones included), every mode, with and without rebasing *)
Theorem C06_crop_meets_spec t a b mode rebase :
  wf_itier t -> crop_i t a b mode rebase = crop_spec t a b mode rebase.
Proof. exact (crop_i_spec t a b mode rebase). Qed.
Print Assumptions C06_crop_meets_spec.

Theorem C06_truncated_pointwise a b l x :
  lab_at (crop_spec_ents a b Truncated l) x
  = if (a <=? x) && (x <? b) then lab_at l x else None.
Proof. exact (crop_trunc_pointwise a b l x). Qed.
Print Assumptions C06_truncated_pointwise.

Theorem C06_strict_members a b l i :
  In i (crop_spec_ents a b Strict l) <-> In i l /\ inside a b i.
Proof. exact (crop_strict_members a b l i). Qed.
Print Assumptions C06_strict_members.

Theorem C06_lax_members a b l i :
  In i (crop_spec_ents a b Lax l) <-> In i l /\ overlaps a b i.
Proof. simpl. rewrite filter_In, overlapsb_iff. reflexivity. Qed.
Print Assumptions C06_lax_members.

Theorem C06_span_no_rebase t a b mode t' :
  wf_itier t -> mode <> Lax -> crop_i t a b mode false = Ok t' -> imin t' = a /\ imax t' = b.
Proof. exact (crop_span_norebase t a b mode t'). Qed.
Print Assumptions C06_span_no_rebase.

Theorem C06_span_lax_just_enough t a b t' :
  wf_itier t -> crop_i t a b Lax false = Ok t' ->
  imin t' <= a /\ b <= imax t' /\ Forall (in_span (imin t') (imax t')) (ients t') /\
  (imin t' = a \/ exists i, In i (ients t') /\ imin t' = istart i) /\
  (imax t' = b \/ exists i, In i (ients t') /\ imax t' = iend i).
Proof. exact (crop_span_lax t a b t'). Qed.
Print Assumptions C06_span_lax_just_enough.

Theorem C06_rebase_window t a b mode t' :
  wf_itier t -> mode <> Lax -> crop_i t a b mode true = Ok t' ->
  ients t' = map (shift (- a)) (crop_spec_ents a b mode (ients t)) /\ imin t' = 0 /\ imax t' = b - a.
Proof. exact (crop_rebase_window t a b mode t'). Qed.
Print Assumptions C06_rebase_window.

Theorem C06_total t a b mode rebase :
  wf_itier t -> a < b -> exists t', crop_i t a b mode rebase = Ok t' /\ wf_itier t'.
Proof. exact (crop_total t a b mode rebase). Qed.
Print Assumptions C06_total.

Theorem C06_empty_window_ok t a b mode rebase :
  wf_itier t -> a < b -> crop_spec_ents a b mode (ients t) = [] ->
  crop_i t a b mode rebase =
  Ok (if rebase then mkIT (iname t) [] 0 (b - a) else mkIT (iname t) [] a b).
Proof.
  intros Hwf Hab He. rewrite (crop_i_spec _ _ _ _ _ Hwf). unfold crop_spec.
  destruct (Z.leb_spec b a); [lia|]. rewrite He. destruct rebase; reflexivity.
Qed.
Print Assumptions C06_empty_window_ok.

Theorem C06_degenerate_rejected t a b mode rebase :
  b <= a -> crop_i t a b mode rebase = Err ArgumentError.
Proof. intro H. unfold crop_i. destruct (Z.leb_spec b a); [reflexivity|lia]. Qed.
Print Assumptions C06_degenerate_rejected.

Theorem C06_point_crop_meets_spec t a b rebase :
  wf_ptier_strict t -> crop_p t a b rebase = crop_p_spec t a b rebase.
Proof. exact (crop_p_spec_ok t a b rebase). Qed.
Print Assumptions C06_point_crop_meets_spec.

Theorem C06_point_members t a b p :
  In p (filter (in_windowb a b) (pents t)) <-> In p (pents t) /\ a <= ptime p <= b.
Proof. rewrite filter_In. unfold in_windowb. intuition lia. Qed.
Print Assumptions C06_point_members.
