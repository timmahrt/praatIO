(* Props/C20.v -- numeric series helpers match their textbook definitions.
   The proofs are in Series/SeriesProofs.v and Series/ZnormProofs.v; a theorem that follows from their lemmas in a
   few lines is proved here. *)
From Coq Require Import ZArith Reals List.
From PraatIO Require Import Series.SeriesModel Series.SeriesProofs Series.ZnormProofs.

(* the filtered series has the input's length *)
Theorem C20_filter_length (V : Type) (d : V) f dist w pad : length (step_filter d f dist w pad) = length dist.
Proof. unfold step_filter. now rewrite map_length, seq_length. Qed.
Print Assumptions C20_filter_length.

(* element x is the function of its window when padding is on or the window fits, and is left
   unchanged otherwise *)
Theorem C20_filter_element (V : Type) (d : V) f dist w pad x : (x < length dist)%nat ->
  nth x (step_filter d f dist w pad) d
  = if pad || ((w / 2 <=? x)%nat && (x + w / 2 <? length dist)%nat)
    then f (window_at d dist (w / 2) x) else nth x dist d.
Proof. intro H. unfold step_filter. now rewrite nth_map_seq. Qed.
Print Assumptions C20_filter_element.

(* the window is element x with its floor(window/2) neighbours on either side, the series being
   extended by its edge values: the source's index bookkeeping is edge clamping *)
Theorem C20_window_is_edge_clamped (V : Type) (d : V) dist o x : (x < length dist)%nat ->
  window_at d dist o x = clamp_window d dist o x.
Proof. exact (window_is_clamped d dist o x). Qed.
Print Assumptions C20_window_is_edge_clamped.

Theorem C20_window_length (V : Type) (d : V) dist o x : (x < length dist)%nat ->
  length (window_at d dist o x) = (2 * o + 1)%nat.
Proof.
  intro Hx. rewrite window_at_spec by exact Hx.
  rewrite !app_length, rev_length, !map_length, !seq_length. simpl. lia.
Qed.
Print Assumptions C20_window_length.

(* the window has odd length, so its median is the middle of the sorted window, a value of the window *)
Theorem C20_median_of_window l o : length l = (2 * o + 1)%nat ->
  median2 l = (2 * nth o (zsort l) 0)%Z /\ In (nth o (zsort l) 0%Z) l.
Proof.
  intro H. split; [exact (median_odd l o H)|].
  eapply Permutation.Permutation_in; [symmetry; apply isort_perm|].
  apply nth_In. unfold zsort. rewrite isort_length. lia.
Qed.
Print Assumptions C20_median_of_window.

(* filterTimeSeriesData never changes the number or order of rows, nor any other column *)
Theorem C20_filters_keep_rows f rows index :
  length (f (map (fun r => nth index r 0%Z) rows)) = length rows ->
  length (filter_rows f rows index) = length rows
  /\ forall k r, nth_error rows k = Some r ->
       exists v, nth_error (filter_rows f rows index) k = Some (replace_col r index v).
Proof. exact (filter_rows_spec f rows index). Qed.
Print Assumptions C20_filters_keep_rows.

(* detectPitchErrors: sample k is flagged iff its predecessor is at most value*t or at least value/t *)
Theorem C20_detect_pitch_errors pitch tn td out : (0 <= tn <= td)%Z -> detect_errors pitch tn td = Ok out ->
  forall k, In k out <->
    (1 <= k < length pitch)%nat /\
    (nth (k - 1) pitch 0 * td <= nth k pitch 0 * tn \/ nth k pitch 0 * td <= nth (k - 1) pitch 0 * tn)%Z.
Proof. exact (detect_errors_spec pitch tn td out). Qed.
Print Assumptions C20_detect_pitch_errors.

(* loadTimeSeriesData on tokenised rows *)
Theorem C20_listing_substitute u body : Forall (fun r => r <> []) body ->
  filter_map (load_row (Some u)) body
  = map (fun r => match r with t :: vals => t :: map (fun c => if undefined_cell c then u else c) vals | [] => [] end) body.
Proof. exact (load_rows_subst u body). Qed.
Print Assumptions C20_listing_substitute.

Theorem C20_listing_skip body : Forall (fun r => r <> []) body ->
  filter_map (load_row None) body = filter (fun r => negb (existsb undefined_cell (tl r))) body.
Proof. exact (load_rows_skip body). Qed.
Print Assumptions C20_listing_skip.

(* z-normalisation: length kept, mean 0, sample standard deviation 1, rank order kept *)
Theorem C20_znorm_length l : length (znorm l) = length l.
Proof. exact (znorm_length l). Qed.
Print Assumptions C20_znorm_length.

Theorem C20_znorm_mean_zero l : l <> nil -> sdev l <> 0%R -> rmean (znorm l) = 0%R.
Proof. exact (znorm_mean_zero l). Qed.
Print Assumptions C20_znorm_mean_zero.

Theorem C20_znorm_sd_one l : (2 <= length l)%nat -> (0 < svar l)%R -> sdev (znorm l) = 1%R.
Proof. exact (znorm_sd_one l). Qed.
Print Assumptions C20_znorm_sd_one.

Theorem C20_znorm_rank_order l a b : (0 < sdev l)%R -> (a < b)%R ->
  ((a - rmean l) / sdev l < (b - rmean l) / sdev l)%R.
Proof.
  intros Hs Hab. unfold Rdiv. apply Rmult_lt_compat_r; [apply Rinv_0_lt_compat; exact Hs|apply Rplus_lt_compat_r, Hab].
Qed.
Print Assumptions C20_znorm_rank_order.

(* rms squared is the mean of the squares; the population deviation is the non-negative square root of the
   population variance *)
Theorem C20_rms_definition l : l <> nil -> (rms l * rms l = rsum (map (fun v => v * v) l) / INR (length l))%R.
Proof. exact (rms_sqr l). Qed.
Print Assumptions C20_rms_definition.

Theorem C20_population_deviation l : l <> nil -> (pdev l * pdev l = pvar l /\ 0 <= pdev l)%R.
Proof. exact (pdev_sqr l). Qed.
Print Assumptions C20_population_deviation.
