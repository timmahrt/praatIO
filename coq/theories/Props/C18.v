(* Props/C18.v -- the zero-crossing search finds real crossings, and what is built on it
   (tgBoundariesToZeroCrossings, audioSplice) keeps textgrid and recording in step.
   The proofs are in Audio/ZeroCrossProofs.v, Audio/ZeroCrossFound.v, Textgrid/TgZc.v and
   Textgrid/TgSpliceProofs.v; a theorem that follows from them in a few lines is proved here. *)
From Coq Require Import ZArith Lia.
From PraatIO Require Import Audio.ZeroCross Audio.ZeroCrossProofs Audio.ZeroCrossFound Textgrid.TgModel Textgrid.TgProofs Textgrid.TgZc
  Tier.TierModel Audio.WavModel Textgrid.TgSplice Textgrid.TgSpliceProofs.
Open Scope Z_scope.

(* findNearestZeroCrossing is total for every recording, target and step: when it returns, the
   result is on a sample position and is a genuine crossing (the sample is zero or differs in
   sign from a neighbour); otherwise it raises ArgumentError exactly when the step holds fewer
   than two samples, and FindZeroCrossingError in every other case -- in particular the loop
   terminates (the out-of-fuel value of the model is never produced) *)
Theorem C18_search_total_and_sound K s t st : 0 < K ->
  match find_zc K s t st with
  | Ok x => on_crossing K s x
  | Err e => (e = ArgumentError /\ st < 2 * K) \/ (e = FindZeroCrossingError /\ 2 * K <= st)
  end.
Proof. exact (find_zc_result K s t st). Qed.
Print Assumptions C18_search_total_and_sound.

(* the loop itself: for any positive step the fuel bound is never exhausted *)
Theorem C18_loop_terminates K dur st t s fuel left right : 0 < st ->
  Z.max 0 (Z.max (left + 1) (dur - right + 1)) < Z.of_nat fuel ->
  zc_loop fuel K dur st t left right s <> Err PyError.
Proof.
  intros Hst Hm.
  destruct (zc_loop_inv K dur st t s Hst fuel left right Hm) as [->|(l & r & x & -> & _)]; discriminate.
Qed.
Print Assumptions C18_loop_terminates.

(* a returned time lies inside the recording *)
Theorem C18_result_in_range K s x : 0 < K -> on_crossing K s x -> 0 <= x < Z.of_nat (length s) * K.
Proof. intros HK (j & -> & (L & _)). nia. Qed.
Print Assumptions C18_result_in_range.

(* one search window: what is found is a crossing of the whole recording *)
Theorem C18_window_sound K dur s start within step rev x : 0 < K ->
  iter_zc K dur s start within step rev = Some x -> on_crossing K s x.
Proof. exact (iter_zc_spec K dur s start within step rev x). Qed.
Print Assumptions C18_window_sound.

(* the boolean used by the check is the Prop of the theorems *)
Theorem C18_crossingb_sound s j : crossingb s j = true -> crossing s j.
Proof.
  unfold crossingb, crossing. intro H. apply andb_prop in H as [L H]. apply Nat.ltb_lt in L.
  split; [exact L|]. apply Bool.orb_true_iff in H as [H|H]; [apply Bool.orb_true_iff in H as [H|H]|].
  - left. lia.
  - apply andb_prop in H as [H1 H2]. right. left. apply Bool.negb_true_iff, Z.eqb_neq in H1. apply Nat.ltb_lt in H2. auto.
  - destruct j as [|i]; [discriminate|]. right. right. exists i. split; [reflexivity|].
    apply Bool.negb_true_iff, Z.eqb_neq in H. exact H.
Qed.
Print Assumptions C18_crossingb_sound.

(* a zero sample right before an on-sample target is found: the search does not end in "no crossing found"
   (nor in any other error) when the target is sample k >= 1 of the recording and sample k-1 is zero *)
Theorem C18_zero_before_target_found K s k st :
  0 < K -> (1 <= k <= length s)%nat -> nth (k - 1) s 0 = 0 -> 2 * K <= st ->
  exists x, find_zc K s (Z.of_nat k * K) st = Ok x.
Proof. exact (find_zc_zero_before_target K s k st). Qed.
Print Assumptions C18_zero_before_target_found.

(* in particular on a silent recording, for every on-sample target after the first sample *)
Theorem C18_silence_found K s k st :
  0 < K -> Forall (fun x => x = 0) s -> (1 <= k <= length s)%nat -> 2 * K <= st ->
  exists x, find_zc K s (Z.of_nat k * K) st = Ok x.
Proof.
  intros HK Hall Hk Hst. apply find_zc_zero_before_target; try assumption.
  rewrite Forall_forall in Hall. apply Hall. apply nth_In. lia.
Qed.
Print Assumptions C18_silence_found.

Example C18_example :
  find_zc 4 [5; 3; 1; -2; -4; 6; 0; 7] 16 10 = Ok 8 /\ find_zc 4 [5; 3; 1; 2; 4; 6; 1; 7] 16 10 = Err FindZeroCrossingError
  /\ find_zc 4 [5; 3] 4 7 = Err ArgumentError.
Proof. vm_compute. repeat split; reflexivity. Qed.

(* tgBoundariesToZeroCrossings (model tg_zc, compared with the script in Coq): tiers, names and order kept; a tier of
   a kind that is not adjusted is untouched; every other tier is that tier with each of its times replaced by what
   findNearestZeroCrossing returns for it (so by the theorems above: a genuine crossing on a sample, or the
   documented error) ... *)
Theorem C18_tg_zero_crossings_tierwise K s st adjP adjI g g' :
  NoDup (names g) -> tg_zc K s st adjP adjI g = Ok g' ->
  Forall2 (zc_rel K s st adjP adjI) (tiers g) (tiers g').
Proof. exact (tg_zc_tierwise K s st adjP adjI g g'). Qed.
Print Assumptions C18_tg_zero_crossings_tierwise.

(* ... keeping every tier's name and its labels: the same multiset, entries that moved past each other may swap *)
Theorem C18_tg_zero_crossings_labels K s st t t' :
  zc_tier K s st t = Ok t' -> tname t' = tname t /\ Permutation.Permutation (tlabels t') (map strip (tlabels t)).
Proof. intro H. split; [exact (zc_tier_name K s st t t' H)|exact (zc_tier_labels K s st t t' H)]. Qed.
Print Assumptions C18_tg_zero_crossings_labels.

(* audioSplice (model splice, compared with the script in Coq on recording and textgrid): splicing keeps audio and text in
   step.  If the textgrid ends where the recording ends (names unique, every tier well-formed, starting at or before 0 and ending by then), then
   whatever the call returns -- with or without moving the times to zero crossings, with or without a region to cut out --
   is again a recording and a textgrid that end together.  Without alignment the requested times must be sample
   positions (otherwise the audio is cut at the nearest sample and the text at the requested time). *)
Theorem C18_splice_in_step K s seg st g n lab a b align s' g' : 0 < K ->
  ready (dur K s) g ->
  (align = false -> on_grid K s a /\ match b with Some x => on_grid K s x | None => True end) ->
  splice K s seg st g n lab a b align = Ok (s', g') ->
  tgmax g' = Some (dur K s').
Proof. exact (splice_in_step K s seg st g n lab a b align s' g'). Qed.
Print Assumptions C18_splice_in_step.

(* ... and, when nothing is cut out, the named tier holds the new interval (label trimmed) at the place the splice went
   to, exactly as long as the inserted audio; the samples under it are the inserted piece, and the recording grew by
   exactly that much *)
Theorem C18_splice_new_interval K s seg st g n lab a align s' g' : 0 < K ->
  ready (dur K s) g -> (align = false -> on_grid K s a) ->
  splice K s seg st g n lab a None align = Ok (s', g') ->
  exists p i, splice_prep K s seg st g a None align = Ok p
    /\ find_tier n (tiers g') = Some (TI i)
    /\ In (mkI (p_a p) (p_a p + dur K (p_seg p)) (strip lab)) (ients i)
    /\ between s' (frK K (p_a p)) (frK K (p_a p + dur K (p_seg p))) = p_seg p
    /\ dur K s' = dur K s + dur K (p_seg p).
Proof. exact (splice_new_interval K s seg st g n lab a align s' g'). Qed.
Print Assumptions C18_splice_new_interval.

(* _shiftTimes (the helper that moves entries lying exactly on a time to its zero crossing) keeps the textgrid
   fit for the splice: the end of the span, unique names, well-formed tiers that start at or before 0 and end by M *)
Theorem C18_shift_times_keeps_ready M tv nv g g' :
  0 <= nv <= M -> ready M g -> shift_tg tv nv g = Ok g' -> ready M g'.
Proof. intros [_ Hnv]. exact (shift_tg_ready M tv nv g g' Hnv). Qed.
Print Assumptions C18_shift_times_keeps_ready.
