(* Props/C07.v -- property theorems for C07 (eraseRegion). *)
From PraatIO Require Import Tier.TierModel Tier.CtorProofs Tier.EraseProofs.

(* on every well-formed tier and every proper in-span region the operation
   succeeds (never a rounding/state error in exact arithmetic) and returns exactly
   these entries and this span *)
Theorem C07_erase_total_and_explicit t a b mode doShrink :
  wf_itier t -> a < b -> imin t <= a -> b <= imax t ->
  (mode = EError -> forall i, In i (ients t) -> ~ overlaps a b i) ->
  erase_i t a b mode doShrink =
  Ok (mkIT (iname t) (erase_result_ents a b mode doShrink (ients t))
           (imin t) (if doShrink then imax t - (b - a) else imax t)).
Proof. exact (erase_i_ok t a b mode doShrink). Qed.
Print Assumptions C07_erase_total_and_explicit.

(* truncate, no shrink: nothing inside, everything outside unchanged *)
Theorem C07_noshrink_pointwise a b l x : a < b ->
  lab_at (erase_result_ents a b ETruncate false l) x
  = if (a <=? x) && (x <? b) then None else lab_at l x.
Proof. intros _. exact (cut_out_pointwise a b l x). Qed.
Print Assumptions C07_noshrink_pointwise.

(* truncate, shrink: everything after b moves earlier by exactly b - a *)
Theorem C07_shrink_pointwise a b l x : a < b -> Forall pos l ->
  lab_at (erase_result_ents a b ETruncate true l) x
  = lab_at l (if x <? a then x else x + (b - a)).
Proof. exact (erase_shrink_pointwise a b l x). Qed.
Print Assumptions C07_shrink_pointwise.

Theorem C07_entries_before_unchanged a b mode l i : a < b ->
  In i l -> iend i < a -> pos i -> In i (erase_result_ents a b mode true l).
Proof.
  intros Hab Hi He Hp. apply join_at_members; [|lia|unfold pos in Hp; lia].
  apply in_flat_map. exists i. split; [exact Hi|]. rewrite es1_before by lia. left; reflexivity.
Qed.
Print Assumptions C07_entries_before_unchanged.

Theorem C07_entries_after_shifted_exactly a b mode l i : a < b ->
  In i l -> b < istart i -> pos i -> In (shift (- (b - a)) i) (erase_result_ents a b mode true l).
Proof.
  intros Hab Hi He Hp. unfold pos in Hp. apply join_at_members; [|simpl; lia..].
  apply in_flat_map. exists i. split; [exact Hi|]. rewrite es1_after by (assumption || lia). left; reflexivity.
Qed.
Print Assumptions C07_entries_after_shifted_exactly.

Theorem C07_straddler_one_interval a b l i : a < b -> wf_ients l ->
  In i l -> istart i < a -> b < iend i ->
  In (mkI (istart i) (iend i - (b - a)) (ilabel i)) (erase_result_ents a b ETruncate true l).
Proof. exact (erase_straddler_one_interval a b l i). Qed.
Print Assumptions C07_straddler_one_interval.

Theorem C07_categorical_members a b l r i :
  erase_keep a b ECategorical l = Ok r -> (In i r <-> In i l /\ ~ overlaps a b i).
Proof.
  simpl. intros [= <-]. rewrite filter_In, negb_true_iff, <- not_true_iff_false, overlapsb_iff. reflexivity.
Qed.
Print Assumptions C07_categorical_members.

Theorem C07_error_iff a b l :
  erase_keep a b EError l = Err CollisionError <-> exists i, In i l /\ overlaps a b i.
Proof.
  rewrite <- existsb_overlaps. simpl. destruct (existsb (overlapsb a b) l); split; congruence.
Qed.
Print Assumptions C07_error_iff.

Theorem C07_degenerate_rejected t a b mode s : b <= a -> erase_i t a b mode s = Err ArgumentError.
Proof. intro H. unfold erase_i. destruct (Z.leb_spec b a); [reflexivity|lia]. Qed.
Print Assumptions C07_degenerate_rejected.

Theorem C07_points_removed t a b t' p :
  erase_p t a b false = Ok t' -> In p (pents t') -> ~ (a <= ptime p <= b).
Proof.
  unfold erase_p. destruct (copy_ptier t); [|discriminate]. cbn [bind].
  destruct (b <=? a); [discriminate|]. intros [= <-]. simpl. rewrite filter_In.
  unfold in_windowb. lia.
Qed.
Print Assumptions C07_points_removed.
