(* Props/C02.v -- Written TextGrid files are well-formed.
   The statements; the lemmas behind them are in IO/RefFileProofs.v, IO/CodecProofs.v and IO/PrepProofs.v. *)
From Coq Require Import Lia String.
From PraatIO Require Import Check.IoCheck IO.CodecProofs IO.PrepProofs IO.RefFileProofs.
Open Scope Z_scope.

(* the specification reader decodes the string token written for a name or label to exactly
   that name or label -- for every string, the formats' own keywords included: a tokenizer
   is not fooled by quoted text *)
Theorem C02_written_string_decodes l rest :
  match rest with 34%N :: _ => False | _ => True end ->
  ref_string (S (length (esc l ++ 34%N :: rest))) (esc l ++ 34%N :: rest) [] = Some (l, rest).
Proof. exact (ref_string_quoted l rest). Qed.
Print Assumptions C02_written_string_decodes.

(* every double quote inside a written name or label is doubled *)
Theorem C02_quotes_doubled l : quotes_paired (esc l) = true.
Proof. exact (quotes_paired_esc l). Qed.
Print Assumptions C02_quotes_doubled.

(* with blank filling on, the entries written for a well-formed interval tier are an
   ascending, gap-free, overlap-free partition of the file's [xmin, xmax] *)
Theorem C02_blank_filled_partition minT maxT t :
  d_isint t = true -> chain minT (d_ents t) maxT -> (d_ents t <> [] \/ minT < maxT) ->
  exists t', prep_tier true minT maxT None t = Ok t' /\ partitionb minT (d_ents t') = Some maxT.
Proof.
  intros HI C NE. eexists. split; [exact (prep_tier_blanks minT maxT None t HI C NE I)|].
  exact (fill_spec_partition _ _ _ C).
Qed.
Print Assumptions C02_blank_filled_partition.

Theorem C02_blank_filled_partition_threshold minT maxT th t :
  d_isint t = true -> chain minT (d_ents t) maxT -> (d_ents t <> [] \/ minT < maxT) ->
  0 < snd th -> existsb (long th) (fill_spec minT (d_ents t) maxT) = true ->
  exists t', prep_tier true minT maxT (Some th) t = Ok t' /\ partitionb minT (d_ents t') = Some maxT.
Proof. intros HI C NE Hd _. exact (prep_tier_blanks_always minT maxT th t HI C NE Hd). Qed.
Print Assumptions C02_blank_filled_partition_threshold.

(* since the repair of F19 no condition on the lengths is needed: with any threshold the written tier is a
   partition of the span *)
Theorem C02_blank_filled_partition_any_threshold minT maxT th t :
  d_isint t = true -> chain minT (d_ents t) maxT -> (d_ents t <> [] \/ minT < maxT) -> 0 < snd th ->
  exists t', prep_tier true minT maxT (Some th) t = Ok t' /\ partitionb minT (d_ents t') = Some maxT.
Proof. exact (prep_tier_blanks_always minT maxT th t). Qed.
Print Assumptions C02_blank_filled_partition_any_threshold.

(* whole files: the specification reader (free-standing numbers, quoted strings, <flags>; every
   other word is comment) reads what the short writer and the long writer print to exactly the
   data -- every tier in order with its class, name, span and entries, declared sizes equal to the
   numbers of items, nothing left over -- for EVERY name and label (quotes, newlines, the formats'
   own keywords and field look-alikes included) and any number of tiers and entries.  The only
   premises: number tokens are number words, and an interval tier holds intervals, a point tier points. *)
Theorem C02_spec_reader_short_file tab g :
  tg_ref tab g = true -> forallb kinds_ok (dg_tiers g) = true ->
  ref_parse (print_short tab g) = Some (expect_tg tab g).
Proof. exact (ref_parse_short tab g). Qed.
Print Assumptions C02_spec_reader_short_file.

Theorem C02_spec_reader_long_file tab g :
  tg_ref tab g = true -> forallb kinds_ok (dg_tiers g) = true ->
  ref_parse (print_long tab g) = Some (expect_tg tab g).
Proof. exact (ref_parse_long tab g). Qed.
Print Assumptions C02_spec_reader_long_file.

(* the token stream itself: strings, numbers and the one flag, in file order *)
Theorem C02_tokens_of_long_file tab g :
  tg_ref tab g = true -> tokenize (print_long tab g) = Some (toks_tg tab g).
Proof. exact (tokenize_long tab g). Qed.
Print Assumptions C02_tokens_of_long_file.

Theorem C02_long_and_short_carry_same_data tab g :
  tg_ref tab g = true -> forallb kinds_ok (dg_tiers g) = true ->
  ref_parse (print_long tab g) = ref_parse (print_short tab g).
Proof. intros H K. now rewrite (ref_parse_long tab g H K), (ref_parse_short tab g H K). Qed.
Print Assumptions C02_long_and_short_carry_same_data.

(* non-vacuity: labels and a name made of the formats' own keywords *)
Example C02_file_example :
  let tab := [(0, mkNum true (T "0") (T "0.0")); (1, mkNum false (T "1") (T "1.5")); (2, mkNum false (T "2") (T "2.25e-05"))]%Z in
  let g := mkDTG 0 2 [mkDT true (T "item [1]: ""IntervalTier""") 0 2 [DI 0 1 (T "intervals [2]: xmin = 3 "); DI 1 2 (T """TextTier"" 7 <exists>")];
                      mkDT false (T "p") 0 2 [DP 1 [34%N; 10%N; 33%N]]]%Z in
  tg_ref tab g = true /\ forallb kinds_ok (dg_tiers g) = true
  /\ ref_parse (print_long tab g) = Some (expect_tg tab g) /\ ref_parse (print_short tab g) = Some (expect_tg tab g).
Proof. vm_compute. repeat split; reflexivity. Qed.

Example C02_example :
  let tab := [(0, mkNum true (T "0") (T "0.0")); (1, mkNum false (T "1") (T "1.5"))] in
  let g := mkDTG 0 1 [mkDT true (T "item [2]:") 0 1 [DI 0 1 (T """IntervalTier""")]] in
  C02oracle (RefRead tab g (print_short tab g)) = true /\ C02oracle (RefRead tab g (print_long tab g)) = true.
Proof. vm_compute. split; reflexivity. Qed.
