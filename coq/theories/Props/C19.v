(* Props/C19.v -- KlattGrid point blocks and point-object files round-trip every number token.
   The statements; the lemmas behind them are in Klatt/PointsProofs.v. *)
From Coq Require Import String.
From PraatIO Require Import Klatt.PointsModel Klatt.PointsProofs.

(* the point rows written for a KlattGrid tier (any number of points, any indentation, any
   number tokens) are read back as exactly the same (time, value) tokens, in order *)
Theorem C19_point_rows_roundtrip indent pts :
  noeq indent = true -> Forall (fun p => tok_ok (fst p) /\ tok_ok (snd p)) pts ->
  process_section (print_points indent 1 pts) = Ok pts.
Proof. exact (process_section_printed indent pts). Qed.
Print Assumptions C19_point_rows_roundtrip.

(* modifyValues / modifySubtiers: the function is applied to every value exactly once (a map),
   times and the number of points are untouched *)
Theorem C19_modify_values_is_map (V : Type) (f : V -> V) pts :
  map fst (modify_values f pts) = map fst pts /\ map snd (modify_values f pts) = map f (map snd pts)
  /\ length (modify_values f pts) = length pts.
Proof. unfold modify_values. rewrite !map_map, map_length. simpl. repeat split; reflexivity. Qed.
Print Assumptions C19_modify_values_is_map.

(* slicing the file into sections at ascending indices loses no character *)
Theorem C19_sections_lossless (A : Type) (data : list A) idxs a :
  ascending (a :: idxs) ->
  concat (sections data (a :: idxs)) = slice_nat data a (last idxs a) /\ (a <= last idxs a)%nat.
Proof. exact (sections_lossless data idxs a). Qed.
Print Assumptions C19_sections_lossless.

(* the reader before the repair of F16 dropped the last character of the last section *)
Theorem C19_sections_legacy_refuted :
  exists (data : list N) idxs, concat (sections_legacy data idxs) <> slice_nat data (hd 0%nat idxs) (last idxs 0%nat).
Proof. exists [53%N; 48%N], [0%nat; 2%nat]. vm_compute. discriminate. Qed.
Print Assumptions C19_sections_legacy_refuted.

(* PointProcess: class line, span and point list of the short text form come back exactly *)
Theorem C19_point_object_1d cls mn mx vals :
  nonl cls = true -> nonl mn = true -> nonl mx = true ->
  Forall (fun v => nonl v = true) vals -> Forall (fun v => nonblank v = true) vals ->
  po_open_1d (po_save cls mn mx (length vals) vals) = Ok (mn, mx, vals).
Proof. exact (po_roundtrip_1d cls mn mx (length vals) vals). Qed.
Print Assumptions C19_point_object_1d.

Theorem C19_point_object_2d cls mn mx ps :
  nonl cls = true -> nonl mn = true -> nonl mx = true ->
  Forall (fun p => nonl (fst p) = true /\ nonl (snd p) = true /\ nonblank (fst p) = true) ps ->
  po_open_2d (po_save cls mn mx (length ps) (flatten_pairs ps)) = Ok (mn, mx, ps).
Proof. exact (po_roundtrip_2d cls mn mx (length ps) ps). Qed.
Print Assumptions C19_point_object_2d.

Example C19_example :
  process_section (print_points (T "    ") 1 [(T "0.5", T "1e-300"); (T "1.25", T "-3")]) = Ok [(T "0.5", T "1e-300"); (T "1.25", T "-3")]
  /\ tok_ok (T "1e-300").
Proof. split; [vm_compute; reflexivity|]. repeat split; reflexivity. Qed.
