(* Props/C09.v -- property theorems for C09 (editTimestamps and appendTier of a tier; Textgrid.editTimestamps and
   appendTextgrid). *)
From PraatIO Require Import Tier.TierModel Tier.CtorProofs Tier.EditProofs Textgrid.TgModel Textgrid.TgProofs Textgrid.TgAppendProofs.

Theorem C09_edit_entries o l : filter_map (edit1 o) l = edit_spec_ents o l.
Proof. exact (edit_entries o l). Qed.
Print Assumptions C09_edit_entries.

(* total on every wf tier (empty tiers and tiers that become empty included)
   unless asked to raise; explicit entries and span *)
Theorem C09_edit_total_and_explicit t o mode :
  wf_itier t -> (mode = RError -> edit_i_reports t o = false) ->
  edit_i t o mode =
  Ok (mkIT (iname t) (edit_spec_ents o (ients t))
           (hull_min (edit_spec_ents o (ients t)) (imin t))
           (hull_max (edit_spec_ents o (ients t)) (imax t))).
Proof. exact (edit_i_ok t o mode). Qed.
Print Assumptions C09_edit_total_and_explicit.

Theorem C09_error_mode_raises_iff t o :
  edit_i t o RError = Err OutOfBounds <->
  exists i, In i (ients t) /\ (istart i + o < imin t \/ imax t < iend i + o).
Proof. exact (edit_i_error_iff t o). Qed.
Print Assumptions C09_error_mode_raises_iff.

Theorem C09_span_never_shrinks t o mode t' :
  wf_itier t -> edit_i t o mode = Ok t' -> imin t' <= imin t /\ imax t <= imax t'.
Proof. exact (edit_span_never_shrinks t o mode t'). Qed.
Print Assumptions C09_span_never_shrinks.

Theorem C09_pure_shift_when_nothing_clipped o l :
  Forall pos l -> Forall (fun i => 0 <= istart i + o) l -> edit_spec_ents o l = map (shift o) l.
Proof. exact (edit_pure_shift o l). Qed.
Print Assumptions C09_pure_shift_when_nothing_clipped.

Theorem C09_shift_roundtrip o l :
  Forall pos l -> Forall (fun i => 0 <= istart i) l -> Forall (fun i => 0 <= istart i + o) l ->
  edit_spec_ents (- o) (edit_spec_ents o l) = l.
Proof. exact (edit_roundtrip o l). Qed.
Print Assumptions C09_shift_roundtrip.

Theorem C09_append_tier A B :
  wf_itier A -> wf_itier B -> imin A <= imax A -> 0 <= imax A -> 0 <= imin B -> 0 <= imax B ->
  append_i A B =
  Ok (mkIT (iname A) (ients A ++ map (shift (imax A)) (ients B)) (imin A) (imax A + imax B)).
Proof. exact (append_i_ok A B). Qed.
Print Assumptions C09_append_tier.

(* Textgrid.editTimestamps: the same tiers under the same names in the same order, every tier
   that tier's own editTimestamps (a tier without entries is carried over as it is), and the
   textgrid's span never shrinks *)
Theorem C09_textgrid_edit_tierwise g o m g' :
  tg_edit g o m = Ok g' ->
  names g' = names g
  /\ Forall2 (fun t t' => edit_or_keep t o m = Ok t') (tiers g) (tiers g')
  /\ span_le g g'.
Proof.
  unfold tg_edit. intro H. destruct (edit_all_mapM _ _ _ _ _ H) as (l' & M & A).
  destruct (rebuild_tierwise _ _ _ _ _ _ M A (fun t t' => edit_or_keep_name t o m t') eq_refl) as [N F].
  split; [exact N|]. split; [exact F|exact (add_all_span_le _ _ _ _ A)].
Qed.
Print Assumptions C09_textgrid_edit_tierwise.

(* Textgrid.appendTextgrid: which tiers come back and in which order -- with onlyMatchingNames
   the tiers of A that B also has, in A's order; without it A's tiers followed by the tiers only
   B has, in B's order *)
Theorem C09_append_textgrid_tiers A B only g' :
  NoDup (names A) -> NoDup (names B) -> tg_append A B only = Ok g' ->
  names g' = (if only then filter (fun n => name_in n (names B)) (names A)
              else names A ++ filter (fun n => negb (name_in n (names A))) (names B)).
Proof.
  intros HA HB H. rewrite (tg_append_final A B only g' HA HB H). destruct only; [apply final_names_only|reflexivity].
Qed.
Print Assumptions C09_append_textgrid_tiers.

(* ... and the result has unique tier names again *)
Theorem C09_append_textgrid_names_unique A B only g' :
  NoDup (names A) -> NoDup (names B) -> tg_append A B only = Ok g' -> NoDup (names g').
Proof. intros HA HB H. rewrite (tg_append_final A B only g' HA HB H). now apply final_names_nodup. Qed.
Print Assumptions C09_append_textgrid_names_unique.

(* ... and what each tier of the result is: a tier only A has is A's tier as it was; a tier B has is B's tier given the
   joint span [A.min, A.max + B.max] and moved by A's duration with editTimestamps -- every entry by exactly that
   amount (C09_pure_shift_when_nothing_clipped: nothing is clipped by a non-negative offset) -- and, when A has a tier
   of that name, appended to A's entries of that name *)
Theorem C09_append_textgrid_tier A B only g' n mn ma mb :
  NoDup (names A) -> NoDup (names B) ->
  tgmin A = Some mn -> tgmax A = Some ma -> tgmax B = Some mb ->
  tg_append A B only = Ok g' -> In n (final_names A B only) ->
  appended ma mn (ma + mb) B (find_tier n (tiers A)) n (find_tier n (tiers g')).
Proof. exact (tg_append_tier A B only g' n mn ma mb). Qed.
Print Assumptions C09_append_textgrid_tier.
