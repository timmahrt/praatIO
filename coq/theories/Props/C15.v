(* Props/C15.v -- property theorems for C15 (queries and derived views). *)
From PraatIO Require Import Tier.QueryModel Tier.CtorProofs Tier.SetProofs Tier.WfProofs Tier.QueryProofs Tier.QueryFuzzyProofs
     Tier.AdjustProofs.

Theorem C15_find_exact t q k :
  In k (find_i t q false) <-> exists i, nth_error (ients t) k = Some i /\ ilabel i = q.
Proof.
  rewrite find_i_spec. split; intros (i & H & E); exists i; (split; [exact H|apply text_eqb_eq, E]).
Qed.
Print Assumptions C15_find_exact.

Theorem C15_find_substring t q k :
  In k (find_i t q true) <-> exists i, nth_error (ients t) k = Some i /\ exists a b, ilabel i = a ++ q ++ b.
Proof.
  rewrite find_i_spec. split; intros (i & H & E); exists i; (split; [exact H|apply contains_spec, E]).
Qed.
Print Assumptions C15_find_substring.

(* entries plus non-entries tile [0, maxTimestamp]; each non-entry has positive length *)
Theorem C15_non_entries_tile t ne x :
  wf_itier t -> 0 <= imin t -> non_entries t = Ok ne ->
  Forall pos ne /\
  (covered ne x = (0 <=? x) && (x <? imax t) && negb (covered (ients t) x)).
Proof. exact (non_entries_tile t ne x). Qed.
Print Assumptions C15_non_entries_tile.

Theorem C15_timestamps_sorted_set l : StronglySorted Z.lt (zsort_uniq l).
Proof. exact (zsort_uniq_strict l). Qed.
Print Assumptions C15_timestamps_sorted_set.

Theorem C15_values_in_intervals t data i rows d :
  In (i, rows) (values_in_intervals t data) ->
  (In d rows <-> In d data /\ istart i <= fst d <= iend i).
Proof.
  unfold values_in_intervals. intro H. apply in_map_iff in H as (j & E & _). injection E as <- <-.
  rewrite filter_In. intuition lia.
Qed.
Print Assumptions C15_values_in_intervals.

Theorem C15_values_in_intervals_one_list_per_interval t data :
  map fst (values_in_intervals t data) = ients t.
Proof. unfold values_in_intervals. rewrite map_map. simpl. apply map_id. Qed.
Print Assumptions C15_values_in_intervals_one_list_per_interval.

Theorem C15_value_at_time_exact t l i r i' :
  StronglySorted (fun a b => fst a <= fst b) l ->
  vat_exact t l i = (r, i') ->
  match r with
  | Some row => In row l /\ fst row = t
  | None => forall row, In row l -> fst row <> t
  end.
Proof. exact (vat_exact_spec t l i r i'). Qed.
Print Assumptions C15_value_at_time_exact.

Theorem C15_overlap_check_default s e cs ce incl :
  overlap_check s e cs ce 0 1 0 incl
  = ((Z.max s cs <? Z.min e ce) || (incl && ((s =? ce) || (e =? cs)))).
Proof. unfold overlap_check. change (0 <? 0) with false. cbn [andb]. cbv iota. rewrite !orb_false_r. f_equal. lia. Qed.
Print Assumptions C15_overlap_check_default.

Theorem C15_overlap_check_time_threshold s e cs ce th :
  0 < th -> overlap_check s e cs ce 0 1 th false = (th <=? Z.min e ce - Z.max s cs).
Proof.
  intro H. unfold overlap_check. change (0 <? 0) with false. cbn [andb]. cbv iota.
  destruct (Z.ltb_spec 0 th); [|lia]. cbn [andb].
  destruct (0 <? Z.max 0 (Z.min e ce - Z.max s cs)) eqn:E; cbn [andb orb]; lia.
Qed.
Print Assumptions C15_overlap_check_time_threshold.

(* validate() is True exactly on sorted, positive, non-overlapping, in-span entry lists *)
Theorem C15_validate_true_iff t :
  validate_i t = true <-> wf_ients (ients t) /\ Forall (in_span (imin t) (imax t)) (ients t).
Proof.
  split.
  - intro E. destruct (validate_ients_sound _ _ _ None E) as (W & S & _). auto.
  - intros [W S]. apply validate_ients_wf; auto.
Qed.
Print Assumptions C15_validate_true_iff.

(* equality on the grid is the decidable structural equality *)
Theorem C15_tier_equality_reflexive_symmetric t u :
  itier_eqb t t = true /\ itier_eqb t u = itier_eqb u t.
Proof.
  split; [apply itier_eqb_eq; reflexivity|].
  destruct (itier_eqb t u) eqn:E1, (itier_eqb u t) eqn:E2; try reflexivity.
  - apply itier_eqb_eq in E1. subst. assert (itier_eqb u u = true) by (apply itier_eqb_eq; reflexivity). congruence.
  - apply itier_eqb_eq in E2. subst. assert (itier_eqb t t = true) by (apply itier_eqb_eq; reflexivity). congruence.
Qed.
Print Assumptions C15_tier_equality_reflexive_symmetric.

(* fuzzy getValueAtTime on a strictly time-sorted series: the row returned is a row of the series (from the
   start index on), no row is nearer to the target, and of two rows equally near the earlier one is returned *)
Theorem C15_value_at_time_fuzzy_nearest t data start r i :
  StronglySorted Z.lt (map fst (skipn start data)) ->
  value_at_fuzzy t data start = Ok (r, i) ->
  In r (skipn start data) /\
  forall r', In r' (skipn start data) ->
    Z.abs (fst r - t) <= Z.abs (fst r' - t) /\
    (Z.abs (fst r - t) = Z.abs (fst r' - t) -> fst r <= fst r').
Proof. exact (value_at_fuzzy_nearest t data start r i). Qed.
Print Assumptions C15_value_at_time_fuzzy_nearest.

(* it fails (IndexError in the source) exactly when no sample is left from the start index on *)
Theorem C15_value_at_time_fuzzy_fails_iff t data start :
  (exists e, value_at_fuzzy t data start = Err e) <-> skipn start data = [].
Proof.
  unfold value_at_fuzzy. destruct (skipn start data); split; intro H; try reflexivity; try discriminate;
    [eexists; reflexivity|destruct H; discriminate].
Qed.
Print Assumptions C15_value_at_time_fuzzy_fails_iff.

(* a target that is a sample time gets the sample at that time *)
Theorem C15_value_at_time_fuzzy_exact_hit t data start r i r' :
  StronglySorted Z.lt (map fst (skipn start data)) ->
  value_at_fuzzy t data start = Ok (r, i) ->
  In r' (skipn start data) -> fst r' = t -> fst r = t.
Proof.
  intros Hs H Hin Ht. destruct (value_at_fuzzy_nearest _ _ _ _ _ Hs H) as [_ Hmin].
  destruct (Hmin _ Hin) as [Hle _]. unfold dist in Hle. lia.
Qed.
Print Assumptions C15_value_at_time_fuzzy_exact_hit.

(* getValuesAtPoints(fuzzyMatching=True): for a time-sorted series and time-ordered points (repeats allowed)
   there is one row per point, each a row of the series, and no row of the WHOLE series is nearer to its
   point -- the stop index of one search, handed on as the start index of the next, loses nothing *)
Theorem C15_values_at_points_fuzzy_nearest data pts rows :
  StronglySorted Z.lt (map fst data) -> StronglySorted Z.le pts ->
  gvap_fuzzy pts data 0 = Ok rows ->
  Forall2 (fun t r => In r data /\ forall r', In r' data -> Z.abs (fst r - t) <= Z.abs (fst r' - t)) pts rows.
Proof.
  intros Hs Hpts H. apply (gvap_fuzzy_nearest data pts 0%nat rows Hs Hpts); [|exact H].
  intros t _ r' Hr'. cbn [firstn] in Hr'. destruct Hr'.
Qed.
Print Assumptions C15_values_at_points_fuzzy_nearest.

(* intervalOverlapCheck with a percent threshold pn/pd > 0: the intervals overlap and the overlap is at least that
   fraction of the extent the two intervals cover together *)
Theorem C15_overlap_check_percent_threshold s e cs ce pn pd :
  0 < pn ->
  overlap_check s e cs ce pn pd 0 false
  = (let ot := Z.max 0 (Z.min e ce - Z.max s cs) in
     (0 <? ot) && (pn * (Z.max e ce - Z.min s cs) <=? ot * pd)).
Proof. exact (overlap_check_percent s e cs ce pn pd). Qed.
Print Assumptions C15_overlap_check_percent_threshold.

(* with both thresholds the percent condition alone decides (see the remark in Tier/QueryProofs.v) *)
Theorem C15_overlap_check_both_thresholds s e cs ce pn pd th :
  0 < pn -> 0 < th ->
  overlap_check s e cs ce pn pd th false = overlap_check s e cs ce pn pd 0 false.
Proof. exact (overlap_check_percent_and_time s e cs ce pn pd th). Qed.
Print Assumptions C15_overlap_check_both_thresholds.
