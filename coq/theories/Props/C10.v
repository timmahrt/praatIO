(* Props/C10.v -- property theorems for C10 (tier set operations). *)
From PraatIO Require Import Tier.TierModel Tier.CtorProofs Tier.CropProofs Tier.EraseProofs Tier.InsertProofs Tier.SetProofs Tier.UnionPProofs.

(* difference(A,B) is labelled exactly where A is and B is not, with A's labels;
   total and well-formed for all wf A and any B with positive intervals *)
Theorem C10_difference_pointwise A B :
  wf_itier A -> Forall pos (ients B) ->
  exists t', difference_i A B = Ok t' /\ wf_itier t'
    /\ imin t' = imin A /\ imax t' = imax A
    /\ forall x, lab_at (ients t') x = if covered (ients B) x then None else lab_at (ients A) x.
Proof.
  intros HA HB. unfold difference_i. rewrite (copy_itier_wf A HA). cbn [bind].
  destruct (difference_fold (ients B) A HA HB) as (t' & E & W & N & Mn & Mx & L). exists t'. auto 6.
Qed.
Print Assumptions C10_difference_pointwise.

(* intersection(A,B): one entry per overlapping pair, clipped, labelled a-b *)
Theorem C10_intersection_explicit A B :
  wf_itier A -> wf_itier B ->
  intersection_i A B =
  Ok (mkIT (iname A ++ DASH ++ iname B) (inter_entries (ients A) (ients B))
           (hull_min (inter_entries (ients A) (ients B)) (imin A))
           (hull_max (inter_entries (ients A) (ients B)) (imax A))).
Proof. exact (intersection_explicit A B). Qed.
Print Assumptions C10_intersection_explicit.

(* ... and is labelled exactly where both are *)
Theorem C10_intersection_pointwise A B x :
  labelled (inter_entries A B) x = labelled A x && covered B x.
Proof. exact (intersection_pointwise A B x). Qed.
Print Assumptions C10_intersection_pointwise.

(* union(A,B) is total, well-formed, and labelled exactly where either is *)
Theorem C10_union_covers A B :
  wf_itier A -> wf_itier B ->
  exists t', union_i A B = Ok t' /\ wf_itier t' /\ iname t' = iname A
    /\ forall x, covered (ients t') x = covered (ients A) x || covered (ients B) x.
Proof. exact (union_covers A B). Qed.
Print Assumptions C10_union_covers.

(* a fused entry spans exactly the joint extent of the entries it fuses *)
Theorem C10_fused_entry_extent e ms x :
  pos e -> Forall (overlaps (istart e) (iend e)) ms -> Forall pos ms ->
  coversb (joint_entry e ms) x = covered ms x || coversb e x.
Proof. intros He Ho _. exact (joint_covers e ms x Ho). Qed.
Print Assumptions C10_fused_entry_extent.

(* consequently difference and intersection partition A's labelled time, and
   neither invents labelled time *)
Theorem C10_difference_intersection_partition A B t' x :
  wf_itier A -> Forall pos (ients B) -> difference_i A B = Ok t' ->
  labelled (ients A) x = labelled (ients t') x || labelled (inter_entries (ients A) (ients B)) x.
Proof.
  intros HA HB E. destruct (C10_difference_pointwise A B HA HB) as (t2 & E2 & _ & _ & _ & L).
  rewrite E in E2. injection E2 as <-. rewrite intersection_pointwise.
  unfold labelled. rewrite L.
  destruct (covered (ients B) x), (lab_at (ients A) x); reflexivity.
Qed.
Print Assumptions C10_difference_intersection_partition.

(* mergeLabels(A,B) explicitly: one entry per interval of A that some interval of B overlaps, with A's extent and
   the label a(b1,b2,...) listing the overlapping B labels in time order; name and span as documented *)
Theorem C10_merge_labels_explicit A B :
  wf_itier A -> wf_itier B ->
  merge_labels_i A B =
  Ok (mkIT (iname A ++ DASH ++ iname B) (merge_entries (ients A) (ients B))
           (hull_min (merge_entries (ients A) (ients B)) (imin A))
           (hull_max (merge_entries (ients A) (ients B)) (imax A))).
Proof. exact (merge_labels_explicit A B). Qed.
Print Assumptions C10_merge_labels_explicit.

(* point tiers: union(A,B) contains exactly the union of the time points ... *)
Theorem C10_point_union_times A B t' : union_p A B = Ok t' ->
  forall x, In x (ptimes (pents t')) <-> In x (ptimes (pents A)) \/ In x (ptimes (pents B)).
Proof. exact (union_p_times A B t'). Qed.
Print Assumptions C10_point_union_times.

(* ... and, for operands whose points have distinct times, a time both have carries the two labels joined "a-b"
   (A's first), a time only one of them has keeps that point's label (labels trimmed as every constructor does) *)
Theorem C10_point_union_labels A B t' :
  NoDup (ptimes (pents A)) -> NoDup (ptimes (pents B)) -> union_p A B = Ok t' ->
  forall x, lab_p (pents t') x =
    match lab_p (pents A) x, lab_p (pents B) x with
    | Some a, Some b => Some (join DASH [strip a; strip b])
    | Some a, None => Some (strip a)
    | None, Some b => Some (strip b)
    | None, None => None
    end.
Proof. exact (union_p_labels A B t'). Qed.
Print Assumptions C10_point_union_labels.
