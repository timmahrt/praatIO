(* Props/C17.v -- interval-driven audio extraction keeps and drops exactly the marked samples.
   The proofs are in Audio/KeepDeleteProofs.v; a theorem that follows from its lemmas in a few lines is proved here. *)
From Coq Require Import ZArith Lia.
From PraatIO Require Import Audio.KeepDelete Audio.KeepDeleteProofs.
Open Scope Z_scope.

(* specifying both lists is rejected *)
Theorem C17_both_lists_rejected start stop k ks d ds :
  keep_delete start stop (k :: ks) (d :: ds) = Err ArgumentError.
Proof. reflexivity. Qed.
Print Assumptions C17_both_lists_rejected.

(* utils.invertIntervalList on a well-formed list inside [lo,hi] returns exactly its gaps *)
Theorem C17_invert_is_complement lo l hi : rchain lo l hi -> lo < hi ->
  invert_list l (Some lo) (Some hi) = Ok (gaps lo l hi).
Proof. exact (invert_is_gaps lo l hi). Qed.
Print Assumptions C17_invert_is_complement.

(* the keep/delete marking: the given intervals with their label, every gap with the other
   label, in time order *)
Theorem C17_marking_keep lo hi k ks : rchain lo (k :: ks) hi -> lo < hi ->
  keep_delete lo hi (k :: ks) [] = Ok (mark_spec true lo (k :: ks) hi).
Proof. exact (keep_delete_keep lo hi k ks). Qed.
Print Assumptions C17_marking_keep.

Theorem C17_marking_delete lo hi d ds : rchain lo (d :: ds) hi -> lo < hi ->
  keep_delete lo hi [] (d :: ds) = Ok (mark_spec false lo (d :: ds) hi).
Proof. exact (keep_delete_delete lo hi d ds). Qed.
Print Assumptions C17_marking_delete.

(* ... which tiles [start, stop]: ascending, gap-free, overlap-free, every stretch positive *)
Theorem C17_marking_tiles lo hi keep del ms :
  rchain lo (keep ++ del) hi -> lo < hi -> (keep = [] \/ del = []) ->
  keep_delete lo hi keep del = Ok ms -> mtile lo ms hi.
Proof. intros C H _. exact (keep_delete_tiles lo hi keep del ms C H). Qed.
Print Assumptions C17_marking_tiles.

(* reading along a tiling with a replacement generator: original length, every kept sample at
   its original position *)
Theorem C17_replacement_keeps_positions s g ms lo hi :
  (forall n, length (g n) = n) -> tiling lo ms hi -> (hi <= length s)%nat ->
  length (flat_map (piece_idx s g) ms) = (hi - lo)%nat
  /\ forall a b i d, In (a, b, true) ms -> (a <= i < b)%nat ->
       nth (i - lo) (flat_map (piece_idx s g) ms) d = nth i s d.
Proof. intros Hg. exact (render_tiling s g Hg ms lo hi). Qed.
Print Assumptions C17_replacement_keeps_positions.

(* without a replacement: exactly the samples of the kept stretches, in order *)
Theorem C17_keep_only s ms :
  flat_map (piece_idx s (fun _ : nat => @nil Z)) ms
  = flat_map (fun m : nat * nat * bool => let '(a, b, k) := m in if k then firstn (b - a) (skipn a s) else @nil Z) ms.
Proof. induction ms as [|[[a b] k] ms IH]; simpl; [reflexivity|]. now rewrite IH. Qed.
Print Assumptions C17_keep_only.

(* a boundary on a sample position maps to that sample index *)
Theorem C17_on_sample_index K i : 0 < K -> fr K (i * K) = i.
Proof. exact (rhe_exact K i). Qed.
Print Assumptions C17_on_sample_index.

(* times beyond the recording are rejected *)
Theorem C17_beyond_duration_rejected K s keep del gen marked m :
  keep_delete 0 (Z.of_nat (length s) * K) keep del = Ok marked -> last_opt marked = Some m ->
  Z.of_nat (length s) * K < m_end m -> read_at_times K s keep del gen = Err ArgumentError.
Proof.
  intros H1 H2 H3. unfold read_at_times. rewrite H1. cbn [bind]. rewrite H2.
  assert (Z.of_nat (length s) * K <? m_end m = true) as -> by lia. reflexivity.
Qed.
Print Assumptions C17_beyond_duration_rejected.

(* generated silence has the requested number of samples *)
Theorem C17_silence_count n : 0 <= n -> Z.of_nat (length (silence n)) = n.
Proof. intro H. unfold silence. rewrite repeat_length. lia. Qed.
Print Assumptions C17_silence_count.

Example C17_example :
  rchain 0 [(4, 8); (8, 12); (20, 24)] 40 /\
  read_at_times 4 [1; 2; 3; 4; 5; 6; 7; 8; 9; 10] [] [(4, 8); (8, 12); (20, 24)] (Some silence)
  = Ok [1; 0; 0; 4; 5; 0; 7; 8; 9; 10].
Proof. split; [simpl; lia|vm_compute; reflexivity]. Qed.
