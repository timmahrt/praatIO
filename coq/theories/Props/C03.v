(* Props/C03.v -- the reader on specification-conformant files: line ends, blank removal,
   duplicate names, the same label from the long and the short form, long files in a family of
   layouts (Praat's and ELAN's among them).  Property theorems only. *)
From Coq Require Import Lia String.
From PraatIO Require Import IO.IoModel IO.DupNames IO.CodecProofs IO.CrlfProofs IO.ShortFileProofs IO.LongFileProofs IO.LongStyleProofs.

(* a CRLF file and the LF file with the same content are parsed identically, in either layout *)
Theorem C03_crlf_invariant_short s :
  forallb (fun c => negb (c =? 13)%N) s = true -> parse_short (to_crlf s) = parse_short s.
Proof. intro H. unfold parse_short. now rewrite (crlf_roundtrip s H), (crlf_nocr s H). Qed.
Print Assumptions C03_crlf_invariant_short.

Theorem C03_crlf_invariant_long u s :
  forallb (fun c => negb (c =? 13)%N) s = true -> parse_long u (to_crlf s) = parse_long u s.
Proof. intro H. unfold parse_long. now rewrite (crlf_roundtrip s H), (crlf_nocr s H). Qed.
Print Assumptions C03_crlf_invariant_long.

(* includeEmptyIntervals=False omits exactly the entries whose label is empty; spans, names,
   types, order and every other entry are untouched *)
Theorem C03_remove_blanks_exact g :
  rg_xmin (remove_blanks g) = rg_xmin g /\ rg_xmax (remove_blanks g) = rg_xmax g
  /\ map r_name (rg_tiers (remove_blanks g)) = map r_name (rg_tiers g)
  /\ map r_isint (rg_tiers (remove_blanks g)) = map r_isint (rg_tiers g)
  /\ map r_xmin (rg_tiers (remove_blanks g)) = map r_xmin (rg_tiers g)
  /\ map r_xmax (rg_tiers (remove_blanks g)) = map r_xmax (rg_tiers g)
  /\ map r_ents (rg_tiers (remove_blanks g))
     = map (fun t => filter (fun e => match e with RI _ _ l | RP _ l => negb (text_eqb l []) end) (r_ents t)) (rg_tiers g).
Proof. unfold remove_blanks; simpl. rewrite !map_map. simpl. repeat split; reflexivity. Qed.
Print Assumptions C03_remove_blanks_exact.

(* duplicate names: whatever is returned has unique names, one per tier of the file *)
Theorem C03_opened_names_unique mode names out :
  open_names mode names [] = Ok out -> NoDup out /\ length out = length names.
Proof.
  intro H. split; [eapply open_names_nodup; [constructor|exact H]|].
  apply open_names_length in H. exact H.
Qed.
Print Assumptions C03_opened_names_unique.

(* a file without duplicate names: all names are kept in file order, in both modes *)
Theorem C03_unique_names_kept mode names : NoDup names -> open_names mode names [] = Ok names.
Proof. intro H. exact (open_names_nodup_id mode names [] H). Qed.
Print Assumptions C03_unique_names_kept.

(* error mode raises DuplicateTierName exactly when a name occurs twice *)
Theorem C03_error_mode_iff names :
  open_names DupError names [] = Err DuplicateTierName <-> ~ NoDup names.
Proof. exact (open_names_error_iff names [] (NoDup_nil _)). Qed.
Print Assumptions C03_error_mode_iff.

(* the long-form text field and the short-form text row agree on every label (C01 lemmas) *)
Theorem C03_long_short_same_label l rest tail :
  forallb (fun c => negb (isq c)) tail = true -> ws_to_eol tail = true ->
  exists w, fetch_text_row (quoted l ++ 10%N :: rest) = Ok (w, rest)
    /\ match quoted_group true (esc l ++ 34%N :: tail) [] None with Some g => unesc (strip g) = w | None => False end.
Proof.
  intros A B. exists (strip l). split; [apply fetch_text_row_quoted|].
  exact (long_text_field_roundtrip l tail A B).
Qed.
Print Assumptions C03_long_short_same_label.

(* whole long-form files in a FAMILY of layouts -- any indentation made of blanks, any run of blanks
   (also none) after a value, `]:` or `]` after an entry index, `item [k]` or `item[k]`, LF or CRLF
   line ends: Praat's own layout and ELAN's are two members.  Whatever text splits at the keywords
   into blocks of such a layout for the data g (decidable side condition lfile_ok_s, evaluated on
   every generated long / ELAN file) is read back as exactly g: spans, tier order, types, names,
   number tokens, labels -- for every label and single-line name *)
Theorem C03_long_family_file s tab g data :
  lfile_ok_s s tab g (crlf_to_lf data) = true ->
  parse_long true data = Ok (rd_tg_long tab g).
Proof. exact (parse_long_styled s tab g data). Qed.
Print Assumptions C03_long_family_file.

(* one entry block in any layout of the family *)
Theorem C03_long_family_interval_block close ind trn trs j N1 N2 lab trail :
  closeb close = true -> allsp ind = true -> allsp trn = true -> allsp trs = true ->
  idx j = true -> numshape N1 = true -> numshape N2 = true -> allsp trail = true ->
  parse_long_interval (ichunk_s close ind trn trs j N1 N2 lab ++ trail) = Ok (RI N1 N2 (strip lab)).
Proof. exact (parse_ichunk_s close ind trn trs j N1 N2 lab trail). Qed.
Print Assumptions C03_long_family_interval_block.

(* non-vacuity: an ELAN-style file (no colon after entry indices, no blank after numbers, item[1]) with CRLF *)
Example C03_long_family_example :
  let tab := [(0, mkNum false [] (T "0")); (1, mkNum false [] (T "1.5")); (2, mkNum false [] (T "2.25E-05"))]%Z in
  let g := mkDTG 0 2 [mkDT true (T "a ""b"" xmin = 3") 0 2 [DI 0 1 [34%N; 10%N; 61%N]; DI 1 2 (T "xmax = 7 ")];
                      mkDT false (T "p") 0 2 [DP 1 [34%N]]]%Z in
  let s := mkLS (T "]:") (T "]") (T "        ") (T "            ") [] (T " ") in
  let nl := [13%N; 10%N] in
  let data :=
    T "File type = ""ooTextFile""" ++ nl ++ T "Object class = ""TextGrid""" ++ nl ++ nl
    ++ T "xmin = 0" ++ nl ++ T "xmax = 2.25E-05" ++ nl ++ T "tiers? <exists> " ++ nl ++ T "size = 2 " ++ nl ++ T "item []: " ++ nl
    ++ T "    item[1]:" ++ nl ++ T "        class = ""IntervalTier"" " ++ nl ++ T "        name = ""a """"b"""" xmin = 3"" " ++ nl
    ++ T "        xmin = 0" ++ nl ++ T "        xmax = 2.25E-05" ++ nl ++ T "        intervals: size = 2 " ++ nl
    ++ T "        intervals [1]" ++ nl ++ T "            xmin = 0" ++ nl ++ T "            xmax = 1.5" ++ nl
    ++ T "            text = """"""" ++ [10%N] ++ T "="" " ++ nl
    ++ T "        intervals [2]" ++ nl ++ T "            xmin = 1.5" ++ nl ++ T "            xmax = 2.25E-05" ++ nl
    ++ T "            text = ""xmax = 7 "" " ++ nl
    ++ T "    item[2]:" ++ nl ++ T "        class = ""TextTier"" " ++ nl ++ T "        name = ""p"" " ++ nl
    ++ T "        xmin = 0" ++ nl ++ T "        xmax = 2.25E-05" ++ nl ++ T "        points: size = 1 " ++ nl
    ++ T "        points [1]" ++ nl ++ T "            number = 1.5" ++ nl ++ T "            mark = """""""" " ++ nl in
  lfile_ok_s s tab g (crlf_to_lf data) = true /\ parse_long true data = Ok (rd_tg_long tab g).
Proof.
  intros tab g s nl data. assert (lfile_ok_s s tab g (crlf_to_lf data) = true) as OK by (vm_compute; reflexivity).
  exact (conj OK (parse_long_styled s tab g data OK)).
Qed.

Example C03_rename_example :
  open_names DupRename [[119%N]; [119%N]; [119%N; 95%N; 50%N]; [119%N]] []
  = Ok [[119%N]; [119%N; 95%N; 50%N]; [119%N; 95%N; 50%N; 95%N; 50%N]; [119%N; 95%N; 51%N]].
Proof. vm_compute. reflexivity. Qed.
