(* Props/C05.v -- property theorems for C05 (every reachable tier is well-formed). *)
From PraatIO Require Import Tier.TierOps Tier.CtorProofs Tier.WfProofs.

(* whatever the constructor returns is well-formed: arbitrary entry lists *)
Theorem C05_constructor_wf name l mn mx t : new_itier name l mn mx = Ok t -> wf_itier t.
Proof. exact (new_itier_wf name l mn mx t). Qed.
Print Assumptions C05_constructor_wf.

Theorem C05_point_constructor_wf name l mn mx t : new_ptier name l mn mx = Ok t -> wf_ptier t.
Proof. exact (new_ptier_wf name l mn mx t). Qed.
Print Assumptions C05_point_constructor_wf.

(* one operation, any arguments: an Ok result is well-formed *)
Theorem C05_step_preserves_wf t o t' : wf_itier t -> args_wfI o -> run_opI t o = Ok t' -> wf_itier t'.
Proof. exact (run_opI_wf t o t'). Qed.
Print Assumptions C05_step_preserves_wf.

Theorem C05_point_step_preserves_wf t o t' : wf_ptier t -> run_opP t o = Ok t' -> wf_ptier t'.
Proof. exact (run_opP_wf t o t'). Qed.
Print Assumptions C05_point_step_preserves_wf.

Theorem C05_reachable_wf ops t :
  wf_itier t -> Forall args_wfI ops -> wf_itier (fold_left stepI ops t).
Proof. exact (reachable_wf ops t). Qed.
Print Assumptions C05_reachable_wf.

Theorem C05_point_reachable_wf ops t : wf_ptier t -> wf_ptier (fold_left stepP ops t).
Proof. exact (reachable_wf_p ops t). Qed.
Print Assumptions C05_point_reachable_wf.

Theorem C05_validate_agrees t : wf_itier t -> validate_i t = true.
Proof. exact (wf_validate t). Qed.
Print Assumptions C05_validate_agrees.

Theorem C05_point_validate_agrees t : wf_ptier t -> validate_p t = true.
Proof. exact (wf_validate_p t). Qed.
Print Assumptions C05_point_validate_agrees.
