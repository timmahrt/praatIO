(* Props/C08.v -- property theorems for C08 (insertSpace and its inverse). *)
From PraatIO Require Import Tier.TierModel Tier.CtorProofs Tier.EraseProofs Tier.SpaceProofs.

Theorem C08_space_total_and_explicit t s d mode :
  wf_itier t -> 0 <= d -> imin t <= s ->
  (mode = SError -> forall i, In i (ients t) -> ~ (istart i < s < iend i)) ->
  space_i t s d mode =
  Ok (mkIT (iname t) (flat_map (space1 s d (match mode with SError => SNoChange | m => m end)) (ients t))
           (imin t) (imax t + d)).
Proof. exact (space_i_ok t s d mode). Qed.
Print Assumptions C08_space_total_and_explicit.

Theorem C08_error_mode_rejects_straddler t s d :
  (exists i, In i (ients t) /\ istart i < s < iend i) -> space_i t s d SError = Err ArgumentError.
Proof.
  intros (i & Hi & Hst). unfold space_i. simpl. replace (existsb _ _) with true; [reflexivity|].
  symmetry. apply existsb_exists. exists i. split; [exact Hi|apply straddlesb_iff, Hst].
Qed.
Print Assumptions C08_error_mode_rejects_straddler.

Theorem C08_before_unchanged s d mode l i :
  In i l -> iend i <= s -> In i (flat_map (space1 s d mode) l).
Proof.
  intros Hi He. apply in_flat_map. exists i. split; [exact Hi|]. rewrite space1_before by exact He. left; reflexivity.
Qed.
Print Assumptions C08_before_unchanged.

Theorem C08_after_shifted_exactly s d mode l i :
  In i l -> s <= istart i -> pos i -> In (shift d i) (flat_map (space1 s d mode) l).
Proof.
  intros Hi He Hp. apply in_flat_map. exists i. split; [exact Hi|]. rewrite space1_after by assumption. left; reflexivity.
Qed.
Print Assumptions C08_after_shifted_exactly.

Theorem C08_straddler_per_mode s d mode i :
  istart i < s < iend i ->
  space1 s d mode i =
  match mode with
  | SStretch => [mkI (istart i) (iend i + d) (ilabel i)]
  | SSplit => [mkI (istart i) s (ilabel i); mkI (s + d) (iend i + d) (ilabel i)]
  | SNoChange => [i]
  | SError => []
  end.
Proof. exact (space1_straddle s d mode i). Qed.
Print Assumptions C08_straddler_per_mode.

Theorem C08_pointwise_before s d mode l x : mode <> SError -> 0 <= d -> x < s ->
  lab_at (flat_map (space1 s d mode) l) x = lab_at l x.
Proof. exact (space_pointwise_before s d mode l x). Qed.
Print Assumptions C08_pointwise_before.

Theorem C08_pointwise_after s d mode l x : (mode = SStretch \/ mode = SSplit) -> 0 <= d -> s + d <= x ->
  lab_at (flat_map (space1 s d mode) l) x = lab_at l (x - d).
Proof. exact (space_pointwise_after s d mode l x). Qed.
Print Assumptions C08_pointwise_after.

Theorem C08_split_gap_is_blank s d l x : 0 <= d -> s <= x < s + d ->
  lab_at (flat_map (space1 s d SSplit) l) x = None.
Proof.
  intros. apply (lab_at_flat_map_pointwise _ l true x x). intros i _. apply space1_lab_gap_split; assumption.
Qed.
Print Assumptions C08_split_gap_is_blank.

(* eraseRegion(s, s+d, truncate, shrink) undoes insertSpace(s, d, stretch|split):
   it succeeds, restores the span and the label at every time *)
Theorem C08_erase_undoes_insert t s d mode t1 :
  (mode = SStretch \/ mode = SSplit) -> 0 < d -> wf_itier t -> imin t <= s <= imax t ->
  space_i t s d mode = Ok t1 ->
  exists t2, erase_i t1 s (s + d) ETruncate true = Ok t2
             /\ imin t2 = imin t /\ imax t2 = imax t
             /\ forall x, lab_at (ients t2) x = lab_at (ients t) x.
Proof. exact (erase_insert_inverse_tier t s d mode t1). Qed.
Print Assumptions C08_erase_undoes_insert.

Theorem C08_points t s d :
  map (fun p => if ptime p <=? s then p else pshift d p) (pents t)
  = map (fun p => mkP (if ptime p <=? s then ptime p else ptime p + d) (plabel p)) (pents t).
Proof. apply map_ext. intros [x lab]; simpl. destruct (x <=? s); reflexivity. Qed.
Print Assumptions C08_points.
