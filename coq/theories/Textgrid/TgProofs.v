(* Textgrid/TgProofs.v -- C12 / C13.  The mutators are read on the cut of the tier list at the first tier of a name:
   they refine a plain ordered list, keep names unique, only widen the span and are all-or-nothing.  An operation that
   acts tier by tier is a mapped tier operation followed by add_all, or a loop of replaceTier.  Held here as well: the
   textgrid-level theorems of C12 (crop, eraseRegion, insertSpace), the lemmas behind those of C09 (edit_all_mapM,
   rebuild_tierwise), tg_align_tierwise of C14, and the fold lemma fold_replace_tierwise that tg_zc of C18 uses
   (TgZc.v). *)
From PraatIO Require Import Textgrid.TgModel Tier.CtorProofs Tier.CropProofs Tier.EraseProofs Tier.SpaceProofs Tier.EditProofs
  Tier.AdjustProofs.

Definition covers_tier (g : tg) (t : tier) : Prop :=
  match tgmin g, tgmax g with
  | Some a, Some b => a <= tmin t /\ tmax t <= b
  | _, _ => False
  end.

(* the span has to cover every tier for the rollback of replaceTier / renameTier: it adds the old tier again, and
   that leaves the span as it was only because the span covered it (add_step_covered, replace_step_err) *)
Definition tg_inv (g : tg) : Prop :=
  NoDup (names g) /\ Forall (covers_tier g) (tiers g).

Lemma py_insert_pos_le len i : (py_insert_pos len i <= len)%nat.
Proof. unfold py_insert_pos. destruct (Z.ltb_spec i 0); lia. Qed.

Lemma has_name_In g n : has_name g n = true <-> In n (names g).
Proof.
  unfold has_name, names. rewrite existsb_exists. split.
  - intros (t & Ht & E). apply text_eqb_eq in E. subst. apply in_map, Ht.
  - intro H. apply in_map_iff in H as (t & <- & Ht). exists t. split; [exact Ht|apply text_eqb_refl].
Qed.

Lemma has_name_false g n : has_name g n = false <-> ~ In n (names g).
Proof. rewrite <- has_name_In. destruct (has_name g n); split; congruence. Qed.

Lemma existsb_has_name l a b n :
  existsb (fun u => text_eqb (tname u) n) l = has_name (mkTG l a b) n.
Proof. reflexivity. Qed.

Lemma name_in_In n l : name_in n l = true <-> In n l.
Proof.
  unfold name_in. rewrite existsb_exists. split.
  - intros (x & Hx & E). apply text_eqb_eq in E. now subst.
  - intro H. exists n. split; [exact H|apply text_eqb_refl].
Qed.

(* the first tier named n cuts the list in two; everything the mutators do to a named tier is read off this cut *)
Lemma find_tier_split n l t : find_tier n l = Some t ->
  exists l1 l2, l = l1 ++ t :: l2 /\ tname t = n /\ ~ In n (map tname l1).
Proof.
  induction l as [|u l IH]; [discriminate|]. cbn [find_tier]. destruct (text_eqb (tname u) n) eqn:E.
  - intros [= <-]. apply text_eqb_eq in E. exists [], l. cbn. tauto.
  - intro H. destruct (IH H) as (l1 & l2 & -> & N & NI). exists (u :: l1), l2. apply text_eqb_neq in E.
    cbn. intuition.
Qed.

Lemma split_lookup n l1 t l2 : tname t = n -> ~ In n (map tname l1) ->
  find_tier n (l1 ++ t :: l2) = Some t
  /\ index_of n (l1 ++ t :: l2) = Some (length l1)
  /\ remove_named n (l1 ++ t :: l2) = l1 ++ l2.
Proof.
  intros N. induction l1 as [|u l1 IH]; intro NI; cbn.
  - now rewrite N, text_eqb_refl.
  - assert (text_eqb (tname u) n = false) as -> by (apply text_eqb_neq; intro; apply NI; now left).
    destruct IH as (-> & -> & ->); [intro; apply NI; now right|]. auto.
Qed.

Lemma find_tier_none n l : find_tier n l = None <-> ~ In n (map tname l).
Proof.
  induction l as [|t l IH]; simpl; [tauto|].
  destruct (text_eqb (tname t) n) eqn:E.
  - apply text_eqb_eq in E. split; [discriminate|]. intro H. exfalso. apply H. now left.
  - apply text_eqb_neq in E. rewrite IH. tauto.
Qed.

Lemma find_tier_app n l1 l2 :
  find_tier n (l1 ++ l2) = match find_tier n l1 with Some t => Some t | None => find_tier n l2 end.
Proof. induction l1 as [|u l1 IH]; cbn; [reflexivity|]. now destruct (text_eqb (tname u) n). Qed.

Lemma find_tier_name n l t : find_tier n l = Some t -> tname t = n /\ In t l.
Proof.
  intro H. destruct (find_tier_split _ _ _ H) as (l1 & l2 & -> & N & _). split; [exact N|].
  apply in_or_app. right. now left.
Qed.

Lemma name_in_find g n : name_in n (names g) = if find_tier n (tiers g) then true else false.
Proof.
  destruct (find_tier n (tiers g)) as [t|] eqn:F.
  - apply name_in_In. apply find_tier_name in F as [<- I]. now apply in_map.
  - apply find_tier_none in F. destruct (name_in n (names g)) eqn:X; [|reflexivity].
    apply name_in_In in X. contradiction.
Qed.

Lemma index_find n l k : index_of n l = Some k -> exists t, find_tier n l = Some t.
Proof.
  revert k. induction l as [|u l IH]; intros k E; [discriminate|]. simpl in *.
  destruct (text_eqb (tname u) n); [eauto|].
  destruct (index_of n l) as [j|]; [|discriminate]. eapply IH. reflexivity.
Qed.

Lemma find_index n l t : find_tier n l = Some t -> exists k, index_of n l = Some k.
Proof.
  intro H. destruct (find_tier_split _ _ _ H) as (l1 & l2 & -> & N & NI).
  exists (length l1). now apply split_lookup.
Qed.

Lemma remove_named_absent n l : ~ In n (map tname l) -> remove_named n l = l.
Proof.
  induction l as [|u l IH]; intro H; [reflexivity|]. simpl in *.
  destruct (text_eqb (tname u) n) eqn:E.
  - apply text_eqb_eq in E. exfalso. apply H. left. exact E.
  - f_equal. apply IH. intro C. apply H. right. exact C.
Qed.

Lemma remove_named_spec n l : NoDup (map tname l) ->
  incl (remove_named n l) l /\ NoDup (map tname (remove_named n l)) /\ ~ In n (map tname (remove_named n l)).
Proof.
  intro ND. destruct (find_tier n l) as [t|] eqn:F.
  - destruct (find_tier_split _ _ _ F) as (l1 & l2 & -> & N & NI).
    destruct (split_lookup n l1 t l2 N NI) as (_ & _ & ->).
    rewrite map_app in *. cbn [map] in ND. rewrite N in ND. apply NoDup_remove in ND as [ND NI'].
    split; [|auto]. intros x Hx. apply in_app_or in Hx as [Hx|Hx]; apply in_or_app; [now left|right; now right].
  - apply find_tier_none in F. rewrite (remove_named_absent n l F). split; [apply incl_refl|auto].
Qed.

Definition span_le (g g' : tg) : Prop :=
  match tgmin g, tgmin g' with Some a, Some a' => a' <= a | None, _ => True | Some _, None => False end
  /\ match tgmax g, tgmax g' with Some b, Some b' => b <= b' | None, _ => True | Some _, None => False end.

Lemma span_le_refl g : span_le g g.
Proof. unfold span_le. destruct (tgmin g), (tgmax g); lia. Qed.

Lemma span_le_trans a b c : span_le a b -> span_le b c -> span_le a c.
Proof.
  unfold span_le. intros [A1 A2] [B1 B2]. split.
  - destruct (tgmin a), (tgmin b), (tgmin c); try tauto; lia.
  - destruct (tgmax a), (tgmax b), (tgmax c); try tauto; lia.
Qed.

Lemma span_le_widen g t l : span_le g (mkTG l (new_min g t) (new_max g t)).
Proof. unfold span_le, new_min, new_max; simpl. destruct (tgmin g), (tgmax g); lia. Qed.

Lemma add_step_cases g t idx m r g' : add_step g t idx m = (r, g') ->
  (exists e, r = Err e /\ g' = g) \/
  (r = Ok tt /\ ~ In (tname t) (names g) /\
   g' = mkTG (match idx with None => tiers g ++ [t] | Some i => py_insert (tiers g) i t end) (new_min g t) (new_max g t)).
Proof.
  unfold add_step. destruct (has_name g (tname t)) eqn:Eh; [intros [= <- <-]; eauto|].
  apply has_name_false in Eh. destruct (_ && _); intros [= <- <-]; eauto.
Qed.

Lemma add_step_err g t idx m e g' : add_step g t idx m = (Err e, g') -> g' = g.
Proof. intro H. now destruct (add_step_cases _ _ _ _ _ _ H) as [(e' & _ & ->)|([=] & _)]. Qed.

Lemma add_step_none_ok g t m u g' : add_step g t None m = (Ok u, g') ->
  g' = mkTG (tiers g ++ [t]) (new_min g t) (new_max g t).
Proof. intro H. now destruct (add_step_cases _ _ _ _ _ _ H) as [(e & [=] & _)|(_ & _ & ->)]. Qed.

Lemma add_step_covered g t k :
  has_name g (tname t) = false -> covers_tier g t ->
  add_step g t (Some k) RSilence = (Ok tt, mkTG (py_insert (tiers g) k t) (tgmin g) (tgmax g)).
Proof.
  intros Hn Hc. unfold add_step. rewrite Hn. simpl. unfold covers_tier in Hc.
  unfold new_min, new_max. destruct (tgmin g) as [a|]; [|tauto]. destruct (tgmax g) as [b|]; [|tauto].
  repeat f_equal; lia.
Qed.

Lemma tg_inv_add g t l : tg_inv g -> ~ In (tname t) (names g) -> Permutation (t :: tiers g) l ->
  tg_inv (mkTG l (new_min g t) (new_max g t)).
Proof.
  intros [Hn Hc] Ht P. split.
  - unfold names. simpl. eapply Permutation_NoDup; [apply Permutation_map, P|]. simpl. now constructor.
  - simpl. eapply Permutation_Forall; [exact P|]. constructor.
    + unfold covers_tier, new_min, new_max. simpl. destruct (tgmin g), (tgmax g); lia.
    + eapply Forall_impl; [|exact Hc]. intro u. unfold covers_tier, new_min, new_max. simpl.
      destruct (tgmin g), (tgmax g); try tauto. lia.
Qed.

Lemma tg_inv_sub g l : tg_inv g -> incl l (tiers g) -> NoDup (map tname l) -> tg_inv (mkTG l (tgmin g) (tgmax g)).
Proof.
  intros [_ Hc] Hi ND. split; [exact ND|exact (incl_Forall Hi Hc)].
Qed.

(* on the cut, replaceTier is addTier into l1 ++ l2 at position |l1|, followed on failure by the rollback *)
Lemma replace_step_found g l1 old l2 t m : tiers g = l1 ++ old :: l2 -> ~ In (tname old) (map tname l1) ->
  replace_step g (tname old) t m =
  let k := Some (Z.of_nat (length l1)) in
  match add_step (mkTG (l1 ++ l2) (tgmin g) (tgmax g)) t k m with
  | (Ok u, g2) => (Ok u, g2)
  | (Err e, g2) => (Err e, snd (add_step g2 old k RSilence))
  end.
Proof.
  intros T NI. unfold replace_step, get_tier. rewrite T.
  now destruct (split_lookup (tname old) l1 old l2 eq_refl NI) as (-> & -> & ->).
Qed.

Lemma replace_step_at g l1 old l2 t m u g' : tiers g = l1 ++ old :: l2 -> ~ In (tname old) (map tname l1) ->
  replace_step g (tname old) t m = (Ok u, g') ->
  ~ In (tname t) (map tname (l1 ++ l2)) /\ g' = mkTG (l1 ++ t :: l2) (new_min g t) (new_max g t).
Proof.
  intros T NI. rewrite (replace_step_found _ _ _ _ _ _ T NI). cbv zeta.
  destruct (add_step _ t _ m) as [[u'|e] g2] eqn:A; [|discriminate]. intros [= _ <-].
  destruct (add_step_cases _ _ _ _ _ _ A) as [(e & [=] & _)|(_ & Hn & ->)]. split; [exact Hn|].
  cbn [tiers]. now rewrite py_insert_app_length.
Qed.

Lemma replace_step_ok g n t m u g' : replace_step g n t m = (Ok u, g') ->
  exists l1 old l2, tiers g = l1 ++ old :: l2 /\ tname old = n /\ ~ In n (map tname l1)
    /\ ~ In (tname t) (map tname (l1 ++ l2)) /\ g' = mkTG (l1 ++ t :: l2) (new_min g t) (new_max g t).
Proof.
  intro H. destruct (find_tier n (tiers g)) as [old|] eqn:F.
  - destruct (find_tier_split _ _ _ F) as (l1 & l2 & T & <- & NI).
    exists l1, old, l2. destruct (replace_step_at _ _ _ _ _ _ _ _ T NI H). auto.
  - unfold replace_step, get_tier in H. rewrite F in H. now destruct (index_of n (tiers g)).
Qed.

(* on failure the rollback puts the old tier back where it was *)
Lemma replace_step_err g n t m e g' :
  tg_inv g -> replace_step g n t m = (Err e, g') -> g' = g.
Proof.
  intros [Hn Hc] H. destruct (find_tier n (tiers g)) as [old|] eqn:F.
  - destruct (find_tier_split _ _ _ F) as (l1 & l2 & T & <- & NI).
    rewrite (replace_step_found _ _ _ _ _ _ T NI) in H. cbv zeta in H.
    destruct (add_step _ t _ m) as [[u|e'] g2] eqn:A; [discriminate|]. apply add_step_err in A. subst g2.
    injection H as _ <-. unfold names in Hn. rewrite T in Hn, Hc. rewrite add_step_covered.
    + cbn [snd tiers]. rewrite py_insert_app_length, <- T. now destruct g.
    + apply has_name_false. unfold names. cbn [tiers]. rewrite map_app in *. now apply NoDup_remove_2 in Hn.
    + apply Forall_elt in Hc. exact Hc.
  - unfold replace_step, get_tier in H. rewrite F in H. destruct (index_of n (tiers g)); now injection H as _ <-.
Qed.

Lemma replace_step_facts g n t m u g' : replace_step g n t m = (Ok u, g') ->
  tiers g' = spec_step (tiers g) (TReplace n t m) /\ (tg_inv g -> tg_inv g') /\ span_le g g'.
Proof.
  intro H. destruct (replace_step_ok _ _ _ _ _ _ H) as (l1 & old & l2 & T & N & NI & Ht & ->).
  split; [|split; [|apply span_le_widen]].
  - cbn [tiers spec_step]. rewrite T. destruct (split_lookup n l1 old l2 N NI) as (_ & -> & ->).
    now rewrite py_insert_app_length.
  - intro Hi. apply (tg_inv_add (mkTG (l1 ++ l2) (tgmin g) (tgmax g))); [|exact Ht|apply Permutation_middle].
    destruct Hi as [Hn Hc]. unfold names in Hn. rewrite T in Hn, Hc. split.
    + unfold names. cbn [tiers]. rewrite map_app in *. now apply NoDup_remove_1 in Hn.
    + apply Forall_app in Hc as [H1 H2]. inversion H2; subst. apply Forall_app. auto.
Qed.

Lemma rename_step_cases g a b r g' : rename_step g a b = (r, g') ->
  (exists e, r = Err e /\ g' = g) \/
  exists t t', find_tier a (tiers g) = Some t /\ rebuild_named t b = Ok t' /\ replace_step g a t' RWarning = (r, g').
Proof.
  unfold rename_step, get_tier. destruct (find_tier a (tiers g)) as [t|]; [|intros [= <- <-]; eauto].
  destruct (rebuild_named t b) as [t'|e] eqn:B; [|intros [= <- <-]; eauto]. intro H. right. eauto.
Qed.

Lemma rename_step_err g a b e g' :
  tg_inv g -> rename_step g a b = (Err e, g') -> g' = g.
Proof.
  intros Hi H. destruct (rename_step_cases _ _ _ _ _ H) as [(e' & _ & ->)|(t & t' & _ & _ & R)]; [reflexivity|].
  eapply replace_step_err; eauto.
Qed.

Theorem tg_step_atomic g o e g' : tg_inv g -> tg_step g o = (Some e, g') -> g' = g.
Proof.
  intros Hi. destruct o; simpl.
  - destruct (add_step g t idx mode) as [[u|e'] g2] eqn:E; [discriminate|]. intros [= _ <-]. eapply add_step_err, E.
  - unfold remove_step. destruct (get_tier g n); [discriminate|now intros [= _ <-]].
  - destruct (rename_step g old new) as [[u|e'] g2] eqn:E; [discriminate|]. intros [= _ <-]. eapply rename_step_err; eauto.
  - destruct (replace_step g n t mode) as [[u|e'] g2] eqn:E; [discriminate|]. intros [= _ <-]. eapply replace_step_err; eauto.
Qed.

Lemma tg_step_ok g o g' : tg_step g o = (None, g') ->
  tiers g' = spec_step (tiers g) o /\ (tg_inv g -> tg_inv g') /\ span_le g g'.
Proof.
  destruct o; simpl.
  - destruct (add_step g t idx mode) as [r g2] eqn:E.
    destruct (add_step_cases _ _ _ _ _ _ E) as [(e & -> & _)|(-> & Ht & ->)]; [discriminate|]. intros [= <-].
    split; [reflexivity|]. split; [|apply span_le_widen].
    intro Hi. apply tg_inv_add; [exact Hi|exact Ht|]. destruct idx; [apply py_insert_perm|apply Permutation_cons_append].
  - unfold remove_step. destruct (get_tier g n); [|discriminate]. intros [= <-].
    split; [reflexivity|]. split; [|exact (span_le_refl g)].
    intro Hi. destruct (remove_named_spec n (tiers g) (proj1 Hi)) as (I & ND & _). now apply tg_inv_sub.
  - destruct (rename_step g old new) as [[u|e] g2] eqn:E; [|discriminate]. intros [= <-].
    destruct (rename_step_cases _ _ _ _ _ E) as [(e & [=] & _)|(t & t' & F & B & R)].
    destruct (replace_step_facts _ _ _ _ _ _ R) as (T & I & S). split; [|auto].
    rewrite T. cbn [spec_step]. rewrite F, B.
    destruct (find_index _ _ _ F) as (k & ->). reflexivity.
  - destruct (replace_step g n t mode) as [[u|e] g2] eqn:E; [|discriminate]. intros [= <-].
    exact (replace_step_facts _ _ _ _ _ _ E).
Qed.

Theorem tg_step_inv g o : tg_inv g -> tg_inv (snd (tg_step g o)).
Proof.
  intro Hi. destruct (tg_step g o) as [[e|] g'] eqn:E; cbn.
  - now rewrite (tg_step_atomic _ _ _ _ Hi E).
  - now apply (tg_step_ok _ _ _ E).
Qed.

Theorem tg_run_inv ops : forall g, tg_inv g -> tg_inv (tg_run g ops).
Proof.
  induction ops as [|o ops IH]; intros g Hi; [exact Hi|]. simpl. apply IH, tg_step_inv, Hi.
Qed.

(* crop_tier, erase_tier, space_tier, edit_tier, dejitter_tier and respan all unfold to this match *)
Lemma lift_inv (fi : itier -> res itier) (fp : ptier -> res ptier) t t' :
  match t with TI i => do x <- fi i; Ok (TI x) | TP p => do x <- fp p; Ok (TP x) end = Ok t' ->
  match t, t' with TI i, TI i' => fi i = Ok i' | TP p, TP p' => fp p = Ok p' | _, _ => False end.
Proof. destruct t as [i|p]; intro H; apply bind_ok in H as (x & E & [= <-]); exact E. Qed.

Lemma lift_name fi fp t t' :
  (forall i i', fi i = Ok i' -> iname i' = iname i) -> (forall p p', fp p = Ok p' -> pname p' = pname p) ->
  match t with TI i => do x <- fi i; Ok (TI x) | TP p => do x <- fp p; Ok (TP x) end = Ok t' ->
  tname t' = tname t.
Proof. intros Hi Hp H. apply lift_inv in H. destruct t, t'; try contradiction; cbn; auto. Qed.

Lemma crop_tier_name t a b m r t' : crop_tier t a b m r = Ok t' -> tname t' = tname t.
Proof. apply lift_name; intros x x'; [apply crop_i_name|apply crop_p_name]. Qed.

Lemma erase_tier_name t a b s t' : erase_tier t a b s = Ok t' -> tname t' = tname t.
Proof. apply lift_name; intros x x'; [apply erase_i_name|apply erase_p_name]. Qed.

Lemma space_tier_name t s d m t' : space_tier t s d m = Ok t' -> tname t' = tname t.
Proof. apply lift_name; intros x x'; [apply space_i_name|apply space_p_name]. Qed.

Lemma edit_tier_name t o m t' : edit_tier t o m = Ok t' -> tname t' = tname t.
Proof. apply lift_name; intros x x'; [apply edit_i_name|apply edit_p_name]. Qed.

Lemma dejitter_tier_name t refs d t' : dejitter_tier t refs d = Ok t' -> tname t' = tname t.
Proof. apply lift_name; intros x x'; [apply dejitter_i_name|apply dejitter_p_name]. Qed.

Lemma respan_name t mn mx t' : respan t mn mx = Ok t' -> tname t' = tname t.
Proof. apply lift_name; intros x x'; [apply new_itier_name|apply new_ptier_name]. Qed.

Lemma edit_or_keep_name t o m t' : edit_or_keep t o m = Ok t' -> tname t' = tname t.
Proof. unfold edit_or_keep. destruct (tents_empty t); [now intros [= <-]|apply edit_tier_name]. Qed.

Lemma join_entries_name a b mn mx t' : join_entries a b mn mx = Ok t' -> tname t' = tname a.
Proof.
  destruct a as [a|a], b as [b|b]; simpl; try discriminate; intro H; apply bind_ok in H as (x & E & [= <-]).
  - eapply new_itier_name, E.
  - eapply new_ptier_name, E.
Qed.

Lemma add_all_inv l m : forall g g', add_all g l m = Ok g' -> tiers g' = tiers g ++ l.
Proof.
  induction l as [|t l IH]; intros g g' H; cbn [add_all] in H.
  - injection H as <-. now rewrite app_nil_r.
  - destruct (add_step g t None m) as [[u|e] g1] eqn:A; [|discriminate].
    apply add_step_none_ok in A. subst g1. rewrite (IH _ _ H). cbn [tiers]. now rewrite <- app_assoc.
Qed.

Lemma add_all_span l m : forall g g', add_all g l m = Ok g' ->
  (forall mn, tgmin g = Some mn -> Forall (fun t => mn <= tmin t) l -> tgmin g' = Some mn)
  /\ (forall mx, tgmax g = Some mx -> Forall (fun t => tmax t <= mx) l -> tgmax g' = Some mx).
Proof.
  induction l as [|t l IH]; intros g g' H; cbn [add_all] in H; [injection H as <-; auto|].
  destruct (add_step g t None m) as [[u|e] g1] eqn:A; [|discriminate]. apply add_step_none_ok in A. subst g1.
  destruct (IH _ _ H) as [Imin Imax].
  split; intros b Hb F; inversion F; subst; [apply Imin|apply Imax]; trivial; cbn; unfold new_min, new_max;
    rewrite Hb; f_equal; lia.
Qed.

Lemma add_all_span_le l m : forall g g', add_all g l m = Ok g' -> span_le g g'.
Proof.
  induction l as [|t l IH]; intros g g' H; cbn [add_all] in H; [injection H as <-; apply span_le_refl|].
  destruct (add_step g t None m) as [[u|e] g1] eqn:A; [|discriminate]. apply add_step_none_ok in A. subst g1.
  eapply span_le_trans; [apply span_le_widen|exact (IH _ _ H)].
Qed.

(* crop, eraseRegion, insertSpace and editTimestamps fill a new textgrid with the mapped tiers *)
Lemma rebuild_tierwise (f : tier -> res tier) g0 m g l g' :
  mapM f (tiers g) = Ok l -> add_all g0 l m = Ok g' ->
  (forall t t', f t = Ok t' -> tname t' = tname t) -> tiers g0 = [] ->
  names g' = names g /\ Forall2 (fun t t' => f t = Ok t') (tiers g) (tiers g').
Proof.
  intros M H Hf T0. apply add_all_inv in H. rewrite T0 in H. cbn [app] in H.
  apply mapM_Forall2 in M. unfold names. rewrite H. split; [|exact M]. eapply Forall2_map_eq; [|exact M]. exact Hf.
Qed.

Lemma mapM_keeps (f : tier -> res tier) (P Q : tier -> Prop) l r :
  (forall t t', P t -> f t = Ok t' -> tname t' = tname t /\ Q t') ->
  Forall P l -> mapM f l = Ok r -> map tname r = map tname l /\ Forall Q r.
Proof.
  intros Hf F M. apply mapM_Forall2 in M. induction M as [|t t' l r Ht _ IH]; [auto|].
  inversion F as [|? ? Pt Pl]; subst. destruct (IH Pl) as [A B]. destruct (Hf t t' Pt Ht) as [N Qt].
  split; [cbn [map]; congruence|constructor; assumption].
Qed.

Theorem tg_crop_tierwise g a b m r g' :
  tg_crop g a b m r = Ok g' ->
  names g' = names g /\ Forall2 (fun t t' => crop_tier t a b m r = Ok t') (tiers g) (tiers g').
Proof.
  unfold tg_crop. destruct (b <=? a); [discriminate|]. intro H. apply bind_ok in H as (l & M & H).
  eapply rebuild_tierwise; [exact M|exact H|intros t t'; apply crop_tier_name|now destruct r].
Qed.

Theorem tg_crop_spans g a b m r g' :
  m <> Lax -> Forall (fun t => match t with TI t => wf_itier t | TP _ => True end) (tiers g) ->
  tg_crop g a b m r = Ok g' ->
  Forall (fun t => match t with
                   | TI t => imin t = (if r then 0 else a) /\ imax t = (if r then b - a else b)
                   | TP t => pmin t = (if r then 0 else a) /\ pmax t = (if r then b - a else b) end) (tiers g').
Proof.
  intros Hm Hwf E. destruct (tg_crop_tierwise g a b m r g' E) as [_ F2].
  eapply Forall2_Forall_r; [|exact Hwf|exact F2]. intros t t' W Ht. apply lift_inv in Ht.
  destruct t as [t|t], t' as [x|x]; try contradiction.
  - destruct r; [|apply (crop_span_norebase t a b m x W Hm Ht)].
    destruct (crop_rebase_window t a b m x W Hm Ht) as (_ & A & B). auto.
  - apply (crop_p_span t a b r x Ht).
Qed.

(* Textgrid.eraseRegion: same names in the same order, every tier is that tier's own
   eraseRegion(truncate), and the textgrid's own span shrinks by exactly the region's length *)
Theorem tg_erase_tierwise g a b s g' :
  NoDup (names g) -> tg_erase g a b s = Ok g' ->
  names g' = names g
  /\ Forall2 (fun t t' => erase_tier t a b s = Ok t') (tiers g) (tiers g')
  /\ tgmax g' = (if s then match tgmax g with Some m => Some (m - (b - a)) | None => None end else tgmax g).
Proof.
  intros _. unfold tg_erase. destruct (b <=? a); [discriminate|]. intro H.
  apply bind_ok in H as (l & M & H). apply bind_ok in H as (g2 & H & [= <-]).
  destruct (rebuild_tierwise _ _ _ _ _ _ M H (fun t t' => erase_tier_name t a b s t') eq_refl). auto.
Qed.

Theorem tg_space_tierwise g s d m g' :
  NoDup (names g) -> tg_space g s d m = Ok g' ->
  names g' = names g /\ Forall2 (fun t t' => space_tier t s d m = Ok t') (tiers g) (tiers g').
Proof.
  intros _ H. apply bind_ok in H as (l & M & H).
  exact (rebuild_tierwise _ _ _ _ _ _ M H (fun t t' => space_tier_name t s d m t') eq_refl).
Qed.

(* editTimestamps edits and adds tier after tier; only when it returns is that mapping first and adding afterwards:
   which error comes first differs *)
Lemma edit_all_mapM l o m : forall g g', edit_all g l o m = Ok g' ->
  exists l', mapM (fun t => edit_or_keep t o m) l = Ok l' /\ add_all g l' m = Ok g'.
Proof.
  induction l as [|t l IH]; intros g g' H; cbn [edit_all] in H; [exists []; auto|].
  apply bind_ok in H as (t' & E & H). destruct (add_step g t' None m) as [[u|e] g1] eqn:A; [|discriminate].
  destruct (IH _ _ H) as (l' & M & AA). exists (t' :: l'). cbn [mapM add_all]. rewrite E, M, A. auto.
Qed.

(* alignBoundariesAcrossTiers and tgBoundariesToZeroCrossings walk over the tiers of g and leave each or put one of the
   same name in its place with replaceTier.  done: the tiers already walked over; they locate the cut. *)
Lemma fold_replace_from (step : tg -> tier -> res tg) (R : tier -> tier -> Prop) :
  (forall g t g1, step g t = Ok g1 ->
     (g1 = g /\ R t t) \/
     exists t' u, tname t' = tname t /\ R t t' /\ replace_step g (tname t) t' RWarning = (Ok u, g1)) ->
  forall l done g g', tiers g = done ++ l -> NoDup (map tname (done ++ l)) ->
  fold_res step l g = Ok g' -> exists l', tiers g' = done ++ l' /\ Forall2 R l l'.
Proof.
  intro Hs. induction l as [|t l IH]; intros done g g' T ND H; cbn [fold_res] in H.
  - injection H as <-. exists []. split; [exact T|constructor].
  - apply bind_ok in H as (g1 & A & H).
    assert (~ In (tname t) (map tname done)) as NI.
    { rewrite map_app in ND. cbn [map] in ND. apply NoDup_remove_2 in ND. intro Hin. apply ND, in_or_app. now left. }
    assert (forall t', tname t' = tname t -> tiers g1 = done ++ t' :: l -> R t t' ->
                       exists l', tiers g' = done ++ l' /\ Forall2 R (t :: l) l') as Next.
    { intros t' N T1 Rt. destruct (IH (done ++ [t']) g1 g') as (l' & T' & F).
      - now rewrite T1, <- app_assoc.
      - rewrite <- app_assoc. cbn [app]. rewrite map_app in *. cbn [map] in *. now rewrite N.
      - exact H.
      - exists (t' :: l'). split; [now rewrite T', <- app_assoc|now constructor]. }
    destruct (Hs _ _ _ A) as [[-> Rt]|(t' & u & N & Rt & RS)]; [now apply (Next t)|].
    apply (Next t' N); [|exact Rt]. now destruct (replace_step_at _ _ _ _ _ _ _ _ T NI RS) as [_ ->].
Qed.

Lemma fold_replace_tierwise step R g g' :
  (forall g t g1, step g t = Ok g1 ->
     (g1 = g /\ R t t) \/
     exists t' u, tname t' = tname t /\ R t t' /\ replace_step g (tname t) t' RWarning = (Ok u, g1)) ->
  NoDup (names g) -> fold_res step (tiers g) g = Ok g' -> Forall2 R (tiers g) (tiers g').
Proof.
  intros Hs ND H. destruct (fold_replace_from step R Hs (tiers g) [] g g' eq_refl ND H) as (l' & T & F).
  now rewrite T.
Qed.

Definition aligned (n : text) (refs : list Z) (d : Z) (t t' : tier) : Prop :=
  if text_eqb (tname t) n then t' = t else dejitter_tier t refs d = Ok t'.

Theorem tg_align_tierwise g n d g' :
  NoDup (names g) -> tg_align g n d = Ok g' ->
  exists ref, find_tier n (tiers g) = Some ref
  /\ Forall2 (aligned n (timestamps_of ref) d) (tiers g) (tiers g').
Proof.
  intros ND. unfold tg_align. destruct (find_tier n (tiers g)) as [ref|]; [|discriminate].
  destruct (too_close d (tl (timestamps_of ref))); [discriminate|]. intro H.
  exists ref. split; [reflexivity|]. apply (fold_replace_tierwise _ _ _ _) with (3 := H); [|exact ND].
  intros g0 t g1. unfold align_one, aligned. destruct (text_eqb (tname t) n); [intros [= <-]; now left|].
  intro A. apply bind_ok in A as (t' & D & A). pose proof (dejitter_tier_name _ _ _ _ D) as N. rewrite N in A.
  destruct (replace_step _ _ _ _) as [[u|e] g2] eqn:RS; [|discriminate]. injection A as <-. right. eauto.
Qed.

