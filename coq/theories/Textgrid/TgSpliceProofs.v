(* Textgrid/TgSpliceProofs.v -- audioSplice keeps recording and textgrid in step: if the textgrid ends where the
   recording ends, it still does afterwards; the new interval lies over exactly the inserted audio. *)
From PraatIO Require Import Tier.CtorProofs Tier.InsertProofs Tier.InsertPProofs Tier.WfProofs Tier.SpaceProofs
  Textgrid.TgModel Textgrid.TgProofs Audio.ZeroCross Audio.ZeroCrossProofs
  Textgrid.TgSplice.
Open Scope Z_scope.

Definition wf_tier (t : tier) : Prop := match t with TI i => wf_itier i | TP p => wf_ptier p end.

(* the tier starts at or before 0 (it need not lie inside [0, M]) and ends by M *)
Definition within (M : Z) (t : tier) : Prop := wf_tier t /\ tmin t <= 0 /\ tmax t <= M.

Lemma ins_length K s t f : length (ins K s t f) = (length s + length f)%nat.
Proof.
  unfold ins, upto, from. rewrite !app_length, firstn_length, skipn_length. lia.
Qed.

Lemma dur_ins K s t f : dur K (ins K s t f) = dur K s + dur K f.
Proof. unfold dur. rewrite ins_length. lia. Qed.

Lemma dur_nonneg K s : 0 < K -> 0 <= dur K s.
Proof. unfold dur. nia. Qed.

Lemma dur_del K s i j : 0 < K -> (i <= j <= length s)%nat ->
  dur K (del K s (Z.of_nat i * K) (Z.of_nat j * K)) = dur K s - (Z.of_nat j * K - Z.of_nat i * K).
Proof.
  intros HK H. unfold dur, del, frK, upto, from. rewrite !rhe_exact by exact HK.
  rewrite app_length, firstn_length, skipn_length, !Nat2Z.id, Nat.min_l by lia.
  rewrite Nat2Z.inj_add, Nat2Z.inj_sub by lia. lia.
Qed.

Lemma between_ins K s i f : 0 < K -> (i <= length s)%nat ->
  between (ins K s (Z.of_nat i * K) f) (frK K (Z.of_nat i * K)) (frK K (Z.of_nat i * K + dur K f)) = f.
Proof.
  intros HK Hi. unfold dur. replace (Z.of_nat i * K + Z.of_nat (length f) * K) with (Z.of_nat (i + length f) * K) by lia.
  unfold ins, frK, between, upto, from. rewrite !rhe_exact by exact HK. rewrite !Nat2Z.id.
  replace (i + length f - i)%nat with (length f) by lia.
  rewrite skipn_app, firstn_length, Nat.min_l by exact Hi.
  replace (i - i)%nat with 0%nat by lia. cbn [skipn].
  rewrite (skipn_all2 (firstn i s)) by (rewrite firstn_length; lia). cbn [app].
  rewrite firstn_app, Nat.sub_diag, firstn_all. cbn [firstn]. now rewrite app_nil_r.
Qed.

Lemma shift_i_within M tv nv t t' : nv <= M -> within M (TI t) -> shift_i tv nv t = Ok t' ->
  within M (TI t') /\ iname t' = iname t.
Proof.
  intros Hnv W H. unfold shift_i in H. apply bind_ok in H as (t1 & D & H).
  set (hits := filter (fun e => (istart e =? tv) || (iend e =? tv)) (ients t)) in *.
  set (I := fun u => within M (TI u) /\ iname u = iname t).
  assert (Forall (fun e => iend e <= M) hits) as Hh.
  { apply Forall_forall. intros e He. apply filter_In in He as [He _].
    destruct W as ((_ & Sp & _) & _ & Hmax). rewrite Forall_forall in Sp. destruct (Sp e He). cbn in Hmax. lia. }
  assert (I t1) as I1.
  { eapply (fold_res_inv I); [|split; [exact W|reflexivity]|exact D].
    intros u x u' [(Wu & A & B) Nu] E. destruct (delete_i_span _ _ _ E) as (N & A' & B'). cbn in *.
    split; [split; [eapply delete_i_wf; eauto|cbn; lia]|congruence]. }
  eapply (fold_res_inv_Forall I (fun e => iend e <= M)); [|exact Hh|exact I1|exact H].
  intros u x u' [(Wu & A & B) Nu] Hx E. destruct (insert_i_error_ok _ _ _ Wu E) as (N & A' & B' & _). cbn in *.
  split; [split; [eapply insert_i_wf; eauto|cbn]|congruence].
  unfold moved_i in A', B'. destruct (istart x =? tv); cbn [istart iend] in *; lia.
Qed.

Lemma shift_p_within M tv nv t t' : nv <= M -> within M (TP t) -> shift_p tv nv t = Ok t' ->
  within M (TP t') /\ pname t' = pname t.
Proof.
  intros Hnv W H. unfold shift_p in H.
  eapply (fold_res_inv (fun u => within M (TP u) /\ pname u = pname t)); [|split; [exact W|reflexivity]|exact H].
  intros u x u' [(Wu & A & B) Nu] E. apply bind_ok in E as (u1 & D & E).
  destruct (delete_p_span _ _ _ D) as (N1 & A1 & B1).
  pose proof (delete_p_wf _ _ _ Wu D) as W1.
  destruct (insert_p_inv _ _ _ _ E) as (_ & _ & _ & N2 & _). destruct (insert_p_span _ _ _ _ W1 E) as [A2 B2]. cbn in *.
  split; [split; [eapply insert_p_wf; eauto|cbn; lia]|congruence].
Qed.

Lemma shift_tier_within M tv nv t t' : nv <= M -> within M t -> shift_tier tv nv t = Ok t' ->
  tname t' = tname t /\ within M t'.
Proof.
  intros Hnv W H. apply lift_inv in H. destruct t as [i|p], t' as [x|x]; try contradiction.
  - now destruct (shift_i_within M tv nv i x Hnv W H).
  - now destruct (shift_p_within M tv nv p x Hnv W H).
Qed.

(* what audioSplice needs of the textgrid it works on *)
Definition ready (M : Z) (g : tg) : Prop :=
  tgmax g = Some M /\ NoDup (names g) /\ Forall (within M) (tiers g).

Lemma shift_tg_ready M tv nv g g' : nv <= M -> ready M g -> shift_tg tv nv g = Ok g' -> ready M g'.
Proof.
  intros Hnv (Hmax & Hn & Hw) H. unfold shift_tg in H. apply bind_ok in H as (l & E & [= <-]).
  destruct (mapM_keeps _ _ _ _ _ (fun t t' => shift_tier_within M tv nv t t' Hnv) Hw E) as [A B].
  split; [exact Hmax|]. unfold names in *. cbn [tiers]. split; [now rewrite A|exact B].
Qed.

Lemma space_p_span t s d t' : wf_ptier t -> 0 <= d -> space_p t s d = Ok t' ->
  pmin t' = Z.min (pmin t) (pmax t + d) /\ pmax t' = Z.max (pmin t) (pmax t + d).
Proof.
  intros (_ & Wsp & _) Hd H. rewrite Forall_forall in Wsp.
  enough (Z.min (pmin t) (pmax t + d) <= pmin t' <= Z.min (pmin t) (pmax t + d)
          /\ Z.max (pmin t) (pmax t + d) <= pmax t' <= Z.max (pmin t) (pmax t + d)) by lia.
  apply (new_ptier_bounds _ _ _ _ _ _ _ H); [lia|lia|].
  intros q Hq. apply in_map_iff in Hq as (p & <- & Hp). specialize (Wsp p Hp).
  destruct (ptime p <=? s); [lia|]. destruct p; cbn in *. lia.
Qed.

Lemma space_p_span_eq t s d t' : wf_ptier t -> pmin t <= pmax t -> 0 <= d -> space_p t s d = Ok t' ->
  wf_ptier t' /\ pmin t' = pmin t /\ pmax t' = pmax t + d.
Proof.
  intros W Hle Hd H. split; [eapply new_ptier_wf, H|]. pose proof (space_p_span _ _ _ _ W Hd H). lia.
Qed.

Lemma space_tier_span M t s d t' : 0 <= M -> 0 <= d -> 0 <= s -> within M t -> space_tier t s d SStretch = Ok t' ->
  tname t' = tname t /\ tmax t' <= M + d /\ wf_tier t'.
Proof.
  intros HM Hd Hs (W & Hmin & Hmax) H. split; [exact (space_tier_name _ _ _ _ _ H)|]. apply lift_inv in H.
  destruct t as [i|p], t' as [x|x]; try contradiction; cbn [wf_tier tmin tmax] in *.
  - assert (space_i i s d SStretch = Ok (mkIT (iname i) (flat_map (space1 s d SStretch) (ients i)) (imin i) (imax i + d))) as E
        by (apply space_i_ok; [exact W|exact Hd|lia|discriminate]).
    rewrite E in H. injection H as <-. cbn [imax]. split; [lia|].
    unfold space_i in E. cbn [andb] in E. eapply new_itier_wf, E.
  - pose proof (space_p_span _ _ _ _ W Hd H). split; [lia|]. eapply new_ptier_wf, H.
Qed.

Lemma insert_named_ok l : forall n e l', Forall wf_tier l -> insert_named l n e = Ok l' ->
  map tname l' = map tname l /\ exists i, find_tier n l' = Some (TI i) /\ In (strip_i e) (ients i).
Proof.
  induction l as [|t l IH]; intros n e l' W H; cbn [insert_named] in H; [discriminate|].
  inversion W as [|? ? Wt Wl]; subst.
  destruct (text_eqb (tname t) n) eqn:En.
  - destruct t as [i|p]; [|discriminate]. apply bind_ok in H as (i' & E & [= <-]).
    destruct (insert_i_error_ok _ _ _ Wt E) as (N & _ & _ & Hi). cbn [map find_tier tname] in *. rewrite N, En. eauto.
  - apply bind_ok in H as (r & E & [= <-]). destruct (IH n e r Wl E) as (Nr & i & Fi & Hi).
    cbn [map find_tier]. rewrite Nr, En. eauto.
Qed.

Lemma space_insert_ready M g it d n lab g2 l3 : 0 <= M -> ready M g -> 0 <= d -> 0 <= it ->
  tg_space g it d SStretch = Ok g2 -> insert_named (tiers g2) n (mkI it (it + d) lab) = Ok l3 ->
  tgmax g2 = Some (M + d) /\ NoDup (map tname l3)
  /\ exists i, find_tier n l3 = Some (TI i) /\ In (strip_i (mkI it (it + d) lab)) (ients i).
Proof.
  intros HM (Hmax & Hn & Hw) Hd Hs H I. unfold tg_space in H. apply bind_ok in H as (l & E & H).
  destruct (mapM_keeps _ _ (fun t => tmax t <= M + d /\ wf_tier t) _ _
              (fun t t' => space_tier_span M t it d t' HM Hd Hs) Hw E) as [N Fl].
  pose proof (add_all_inv _ _ _ _ H) as T. cbn [tiers app] in T. rewrite T in I.
  destruct (insert_named_ok _ _ _ _ (Forall_impl _ (fun t => @proj2 _ _) Fl) I) as [N3 F].
  split; [|split; [now rewrite N3, N|exact F]].
  eapply (proj2 (add_all_span _ _ _ _ H)); [cbn [tgmax]; now rewrite Hmax|]. eapply Forall_impl; [|exact Fl]. now intros t [A _].
Qed.

Definition on_grid (K : Z) (s : list Z) (x : Z) : Prop := exists j, x = Z.of_nat j * K /\ (j <= length s)%nat.

Lemma crossing_on_grid K s x : on_crossing K s x -> on_grid K s x.
Proof. intros (j & -> & (Hj & _)). exists j. split; [reflexivity|lia]. Qed.

Definition prep_ok (K : Z) (s : list Z) (p : prep) : Prop :=
  on_grid K s (p_a p) /\ match p_b p with Some x => on_grid K s x | None => True end /\ ready (dur K s) (p_g p).

Lemma on_grid_range K s x : 0 < K -> on_grid K s x -> 0 <= x <= dur K s.
Proof. intros HK (j & -> & Hj). unfold dur. nia. Qed.

Lemma splice_prep_ok K s seg st g a b align p : 0 < K ->
  ready (dur K s) g ->
  (align = false -> on_grid K s a /\ match b with Some x => on_grid K s x | None => True end) ->
  splice_prep K s seg st g a b align = Ok p -> prep_ok K s p /\ (b = None -> p_b p = None).
Proof.
  intros HK R Hna H. unfold splice_prep in H. destruct align.
  - apply bind_ok in H as (z0 & _ & H). apply bind_ok in H as (z1 & _ & H).
    pose proof (find_zc_result K s a st HK) as Ta. apply bind_ok in H as (a1 & Ea & H). rewrite Ea in Ta.
    apply crossing_on_grid in Ta. pose proof (on_grid_range K s a1 HK Ta) as Ra.
    apply bind_ok in H as (g1 & S1 & H). pose proof (shift_tg_ready _ _ _ _ _ (proj2 Ra) R S1) as R1.
    destruct b as [b0|]; [|injection H as <-; split; [split; [exact Ta|split; [exact I|exact R1]]|reflexivity]].
    pose proof (find_zc_result K s b0 st HK) as Tb. apply bind_ok in H as (b1 & Eb & H). rewrite Eb in Tb.
    apply crossing_on_grid in Tb. pose proof (on_grid_range K s b1 HK Tb) as Rb.
    apply bind_ok in H as (g2 & S2 & [= <-]).
    split; [split; [exact Ta|split; [exact Tb|exact (shift_tg_ready _ _ _ _ _ (proj2 Rb) R1 S2)]]|discriminate].
  - injection H as <-. destruct (Hna eq_refl) as [A B]. split; [split; [exact A|split; [exact B|exact R]]|now intros ->].
Qed.

Theorem splice_in_step K s seg st g n lab a b align s' g' : 0 < K ->
  ready (dur K s) g ->
  (align = false -> on_grid K s a /\ match b with Some x => on_grid K s x | None => True end) ->
  splice K s seg st g n lab a b align = Ok (s', g') ->
  tgmax g' = Some (dur K s').
Proof.
  intros HK R Hna H. unfold splice in H.
  apply bind_ok in H as (p & P & H).
  destruct (splice_prep_ok _ _ _ _ _ _ _ _ _ HK R Hna P) as ((Ga & Gb & Rp) & _).
  set (it := match p_b p with Some x => x | None => p_a p end) in *.
  assert (on_grid K s it) as Git by (unfold it; destruct (p_b p); assumption).
  pose proof (on_grid_range K s it HK Git) as Rit.
  set (d := dur K (p_seg p)) in *.
  apply bind_ok in H as (g2 & S & H). apply bind_ok in H as (l3 & I & H).
  destruct (space_insert_ready _ _ _ _ _ _ _ _ (dur_nonneg K s HK) Rp (dur_nonneg K _ HK) (proj1 Rit) S I) as (M2 & ND3 & _).
  destruct (p_b p) as [x|] eqn:Eb.
  - apply bind_ok in H as (g4 & E & [= <- <-]).
    assert (p_a p < x) as Hlt.
    { unfold tg_erase in E. destruct (x <=? p_a p) eqn:C; [discriminate|lia]. }
    destruct (tg_erase_tierwise (mkTG l3 _ _) _ _ _ _ ND3 E) as (_ & _ & Mx).
    rewrite Mx. cbn [tgmax]. rewrite M2. f_equal.
    destruct Ga as (i & Ei & Hi). destruct Gb as (j & Ej & Hj). rewrite Ei, Ej in *.
    rewrite dur_del; [rewrite dur_ins; fold d; lia|exact HK|]. rewrite ins_length. nia.
  - injection H as <- <-. cbn [tgmax]. rewrite M2, dur_ins. reflexivity.
Qed.

Theorem splice_new_interval K s seg st g n lab a align s' g' : 0 < K ->
  ready (dur K s) g -> (align = false -> on_grid K s a) ->
  splice K s seg st g n lab a None align = Ok (s', g') ->
  exists p i, splice_prep K s seg st g a None align = Ok p
    /\ find_tier n (tiers g') = Some (TI i)
    /\ In (mkI (p_a p) (p_a p + dur K (p_seg p)) (strip lab)) (ients i)
    /\ between s' (frK K (p_a p)) (frK K (p_a p + dur K (p_seg p))) = p_seg p
    /\ dur K s' = dur K s + dur K (p_seg p).
Proof.
  intros HK R Hna H. unfold splice in H.
  apply bind_ok in H as (p & P & H).
  destruct (splice_prep_ok K s seg st g a None align p HK R) as ((Ga & _ & Rp) & Eb); [intro E; split; [auto|exact I]|exact P|].
  rewrite (Eb eq_refl) in H.
  pose proof (on_grid_range K s _ HK Ga) as Rit.
  apply bind_ok in H as (g2 & S & H). apply bind_ok in H as (l3 & I & [= <- <-]).
  destruct (space_insert_ready _ _ _ _ _ _ _ _ (dur_nonneg K s HK) Rp (dur_nonneg K _ HK) (proj1 Rit) S I) as (_ & _ & i & Fi & Hi).
  exists p, i. split; [exact P|]. split; [exact Fi|]. split; [exact Hi|].
  destruct Ga as (j & Ej & Hj). rewrite Ej. split; [apply between_ins; assumption|apply dur_ins].
Qed.

(* the premises are satisfiable: a six-sample recording, one interval tier, an insertion at sample 3 *)
Example splice_example :
  let s := [1; -1; 1; -1; 1; -1] in
  let g := mkTG [TI (mkIT [119%N] [mkI 0 8 [97%N]] 0 24)] (Some 0) (Some 24) in
  ready (dur 4 s) g /\ on_grid 4 s 12
  /\ splice 4 s [5; 6] 64 g [119%N] [110%N] 12 None false
     = Ok ([1; -1; 1; 5; 6; -1; 1; -1],
           mkTG [TI (mkIT [119%N] [mkI 0 8 [97%N]; mkI 12 20 [110%N]] 0 32)] (Some 0) (Some 32)).
Proof.
  cbn zeta. split; [|split].
  - split; [reflexivity|]. split; [repeat constructor; intros []|].
    constructor; [|constructor]. split; [|cbn; lia]. cbn [wf_tier]. apply wf_itierb_spec. vm_compute. reflexivity.
  - exists 3%nat. split; [reflexivity|cbn; lia].
  - vm_compute. reflexivity.
Qed.
