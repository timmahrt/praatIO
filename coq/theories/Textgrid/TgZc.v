(* Textgrid/TgZc.v -- praatio_scripts.tgBoundariesToZeroCrossings: every boundary / point time goes to the
   nearest zero crossing of the recording; the tier is rebuilt with tier.new(entries=...) and put back
   with replaceTier.  Times are in ticks of 1/(K*rate) s as in Audio/ZeroCross.v. *)
From PraatIO Require Import Tier.CtorProofs Textgrid.TgModel Textgrid.TgProofs Audio.ZeroCross.
Open Scope Z_scope.

Definition zc_tier (K : Z) (s : list Z) (st : Z) (t : tier) : res tier :=
  match t with
  | TP p =>
      do l <- mapM (fun pt => do x <- find_zc K s (ptime pt) st; Ok (mkP x (plabel pt))) (pents p);
      do p' <- new_ptier (pname p) l (Some (pmin p)) (Some (pmax p));
      Ok (TP p')
  | TI i =>
      do l <- mapM (fun iv => do a <- find_zc K s (istart iv) st; do b <- find_zc K s (iend iv) st;
                              Ok (mkI a b (ilabel iv))) (ients i);
      do i' <- new_itier (iname i) l (Some (imin i)) (Some (imax i));
      Ok (TI i')
  end.

Definition zc_one (K : Z) (s : list Z) (st : Z) (adjP adjI : bool) (g : tg) (t : tier) : res tg :=
  let skip := match t with TP _ => negb adjP | TI _ => negb adjI end in
  if skip then Ok g else
  do t' <- zc_tier K s st t;
  match replace_step g (tname t) t' RWarning with
  | (Ok _, g') => Ok g'
  | (Err e, _) => Err e
  end.

Definition tg_zc (K : Z) (s : list Z) (st : Z) (adjP adjI : bool) (g : tg) : res tg :=
  fold_res (zc_one K s st adjP adjI) (tiers g) g.

Definition tlabels (t : tier) : list text :=
  match t with TI i => map ilabel (ients i) | TP p => map plabel (pents p) end.

Definition tcount (t : tier) : nat := length (tlabels t).

Lemma zc_tier_name K s st t t' : zc_tier K s st t = Ok t' -> tname t' = tname t.
Proof.
  destruct t as [i|p]; cbn [zc_tier]; intro H; apply bind_ok in H as (l & _ & H);
    apply bind_ok in H as (x & E & [= <-]); cbn [tname].
  - eapply new_itier_name, E.
  - eapply new_ptier_name, E.
Qed.

(* the labels of a tier are kept, up to the trimming every tier constructor applies and up to the order of
   entries that moved past each other *)
Lemma zc_tier_labels K s st t t' : zc_tier K s st t = Ok t' ->
  Permutation (tlabels t') (map strip (tlabels t)).
Proof.
  destruct t as [i|p]; cbn [zc_tier]; intro H; apply bind_ok in H as (l & M & H);
    apply bind_ok in H as (x & E & [= <-]); cbn [tlabels].
  - rewrite (new_itier_ents _ _ _ _ _ E). replace (map ilabel (ients i)) with (map ilabel l); [apply homog_i_labels|].
    eapply Forall2_map_eq; [|apply mapM_Forall2, M]. intros a b Ea. cbv beta in Ea.
    apply bind_ok in Ea as (y & _ & Ea). now apply bind_ok in Ea as (z & _ & [= <-]).
  - rewrite (new_ptier_ents _ _ _ _ _ E). replace (map plabel (pents p)) with (map plabel l); [apply homog_p_labels|].
    eapply Forall2_map_eq; [|apply mapM_Forall2, M]. intros a b Ea. cbv beta in Ea.
    now apply bind_ok in Ea as (y & _ & [= <-]).
Qed.

Definition zc_rel (K : Z) (s : list Z) (st : Z) (adjP adjI : bool) (t t' : tier) : Prop :=
  if (match t with TP _ => negb adjP | TI _ => negb adjI end) then t' = t else zc_tier K s st t = Ok t'.

Theorem tg_zc_tierwise K s st adjP adjI g g' :
  NoDup (names g) -> tg_zc K s st adjP adjI g = Ok g' ->
  Forall2 (zc_rel K s st adjP adjI) (tiers g) (tiers g').
Proof.
  intros ND H. apply (fold_replace_tierwise _ _ _ _) with (3 := H); [|exact ND].
  intros g0 t g1. unfold zc_one, zc_rel. destruct (match t with TP _ => _ | TI _ => _ end); [intros [= <-]; now left|].
  intro A. apply bind_ok in A as (t' & D & A).
  destruct (replace_step _ _ _ _) as [[u|e] g2] eqn:RS; [|discriminate]. injection A as <-.
  right. exists t', u. split; [eapply zc_tier_name, D|auto].
Qed.

Corollary tg_zc_names K s st adjP adjI g g' :
  NoDup (names g) -> tg_zc K s st adjP adjI g = Ok g' -> names g' = names g.
Proof.
  intros ND H. unfold names. eapply Forall2_map_eq; [|exact (tg_zc_tierwise _ _ _ _ _ _ _ ND H)].
  intros t t'. unfold zc_rel. destruct (match t with TP _ => _ | TI _ => _ end); [now intros ->|apply zc_tier_name].
Qed.
