(* Textgrid/TgAppendProofs.v -- appendTextgrid: the names of the result are final_names, in that order, and the tier
   named n is what one step of the second loop makes of it; both from one description of that step *)
From PraatIO Require Import Textgrid.TgModel Textgrid.TgProofs.
Open Scope Z_scope.

Lemma find_tier_other m l1 t t' l2 : tname t' = tname t -> m <> tname t ->
  find_tier m (l1 ++ t' :: l2) = find_tier m (l1 ++ t :: l2).
Proof.
  intros N Hm. rewrite !find_tier_app. cbn [find_tier]. rewrite N.
  assert (text_eqb (tname t) m = false) as -> by (apply text_eqb_neq; congruence). reflexivity.
Qed.

(* what one step of the second loop makes of the tier named n *)
Definition appended (ma mn mx : Z) (B : tg) (old : option tier) (n : text) (new : option tier) : Prop :=
  match find_tier n (tiers B) with
  | None => new = old
  | Some tb =>
      exists t1 t2 t3, respan tb mn mx = Ok t1 /\ edit_tier t1 ma RWarning = Ok t2 /\ new = Some t3 /\
        match old with
        | Some ta => join_entries ta t2 mn mx = Ok t3
        | None => respan t2 mn mx = Ok t3
        end
  end.

(* one step of the second loop: nothing when B has no tier named n; otherwise B's tier, re-spanned and moved, is joined to
   the tier of that name where it stands, or added at the end *)
Lemma append_one_shape ma mn mx B g n g' : append_one ma mn mx B g n = Ok g' ->
  if find_tier n (tiers B) then
    exists t3, tname t3 = n /\ appended ma mn mx B (find_tier n (tiers g)) n (Some t3) /\
      ((find_tier n (tiers g) = None /\ tiers g' = tiers g ++ [t3]) \/
       exists l1 ta l2, tiers g = l1 ++ ta :: l2 /\ tname ta = n /\ ~ In n (map tname l1) /\ tiers g' = l1 ++ t3 :: l2)
  else g' = g.
Proof.
  unfold append_one, appended. destruct (find_tier n (tiers B)) as [tb|] eqn:FB; [|now intros [= <-]].
  destruct (find_tier_name _ _ _ FB) as [NB _]. intro H.
  apply bind_ok in H as (t1 & R1 & H). apply bind_ok in H as (t2 & E2 & H).
  assert (tname t2 = n) as N2 by (rewrite (edit_tier_name _ _ _ _ E2), (respan_name _ _ _ _ R1); exact NB).
  destruct (find_tier n (tiers g)) as [ta|] eqn:FG; apply bind_ok in H as (t3 & E3 & H); exists t3.
  - destruct (replace_step g n t3 RWarning) as [[u|e] g2] eqn:RS; [|discriminate]. injection H as <-.
    destruct (replace_step_ok _ _ _ _ _ _ RS) as (l1 & old & l2 & T & N & NI & _ & ->).
    split; [rewrite (join_entries_name _ _ _ _ _ E3); apply (find_tier_name _ _ _ FG)|]. split; [eauto 7|].
    right. exists l1, old, l2. auto.
  - destruct (add_step g t3 None RWarning) as [[u|e] g2] eqn:A; [|discriminate]. injection H as <-.
    split; [rewrite (respan_name _ _ _ _ E3); exact N2|]. split; [eauto 7|].
    left. now rewrite (add_step_none_ok _ _ _ _ _ A).
Qed.

Lemma append_one_names ma mn mx B g n g' :
  append_one ma mn mx B g n = Ok g' ->
  names g' = names g ++ (if name_in n (names B) && negb (name_in n (names g)) then [n] else []).
Proof.
  intro H. apply append_one_shape in H. rewrite !name_in_find.
  destruct (find_tier n (tiers B)); [|subst; now rewrite app_nil_r].
  destruct H as (t3 & N3 & _ & [[F T]|(l1 & ta & l2 & T & Na & NI & T')]); unfold names.
  - rewrite F, T, map_app. cbn. now rewrite N3.
  - rewrite T', T, (proj1 (split_lookup n l1 ta l2 Na NI)), !map_app. cbn. rewrite app_nil_r. congruence.
Qed.

Lemma append_one_lookup ma mn mx B g n g' :
  append_one ma mn mx B g n = Ok g' ->
  appended ma mn mx B (find_tier n (tiers g)) n (find_tier n (tiers g'))
  /\ forall m, m <> n -> find_tier m (tiers g') = find_tier m (tiers g).
Proof.
  intro H. apply append_one_shape in H. destruct (find_tier n (tiers B)) eqn:FB.
  2: { subst. unfold appended. now rewrite FB. }
  destruct H as (t3 & N3 & Ap & [[F T]|(l1 & ta & l2 & T & Na & NI & T')]).
  - rewrite T. split.
    + rewrite find_tier_app. rewrite F in *. cbn [find_tier]. now rewrite N3, text_eqb_refl.
    + intros m Hm. rewrite find_tier_app. destruct (find_tier m (tiers g)); [reflexivity|]. cbn [find_tier].
      assert (text_eqb (tname t3) m = false) as -> by (apply text_eqb_neq; congruence). reflexivity.
  - rewrite T'. split; [now rewrite (proj1 (split_lookup n l1 t3 l2 N3 NI))|].
    intros m Hm. rewrite T. apply find_tier_other; congruence.
Qed.

Lemma fold_append_names ma mn mx B : forall final g g', NoDup final ->
  fold_res (append_one ma mn mx B) final g = Ok g' ->
  names g' = names g ++ filter (fun n => name_in n (names B) && negb (name_in n (names g))) final.
Proof.
  induction final as [|n rest IH]; intros g g' ND H; cbn [fold_res] in H.
  - injection H as <-. cbn [filter]. now rewrite app_nil_r.
  - apply bind_ok in H as (g2 & A & H). inversion ND as [|? ? NI ND']; subst.
    pose proof (append_one_names _ _ _ _ _ _ _ A) as N2. rewrite (IH _ _ ND' H). cbn [filter].
    (* n is not in rest, so the names of g2 and of g have the same members among rest *)
    assert (filter (fun x => name_in x (names B) && negb (name_in x (names g2))) rest
            = filter (fun x => name_in x (names B) && negb (name_in x (names g))) rest) as ->.
    { apply filter_ext_in. intros x Hx. f_equal. f_equal. rewrite N2.
      destruct (name_in n (names B) && negb (name_in n (names g))); [|now rewrite app_nil_r].
      unfold name_in. rewrite existsb_app. cbn [existsb]. rewrite orb_false_r.
      destruct (text_eqb x n) eqn:E; [|now rewrite orb_false_r].
      apply text_eqb_eq in E. subst. contradiction. }
    rewrite N2.
    destruct (name_in n (names B) && negb (name_in n (names g))); [now rewrite <- app_assoc|now rewrite app_nil_r].
Qed.

Lemma filter_map_find_names A l :
  map tname (filter_map (fun n => find_tier n (tiers A)) l) = filter (fun n => name_in n (names A)) l.
Proof.
  induction l as [|n l IH]; [reflexivity|]. cbn [filter_map filter]. rewrite name_in_find.
  destruct (find_tier n (tiers A)) as [t|] eqn:F; [|exact IH].
  cbn [map]. now rewrite IH, (proj1 (find_tier_name _ _ _ F)).
Qed.

Lemma final_names_only A B : final_names A B true = filter (fun n => name_in n (names B)) (names A).
Proof.
  unfold final_names. rewrite filter_app, (filter_none _ (filter _ (names B))), app_nil_r.
  - apply filter_ext_in. intros x Hx. apply name_in_In in Hx. now rewrite Hx.
  - intros x Hx. apply filter_In in Hx as [_ Hx]. apply negb_true_iff in Hx. now rewrite Hx.
Qed.

Lemma final_names_nodup A B only : NoDup (names A) -> NoDup (names B) -> NoDup (final_names A B only).
Proof.
  intros HA HB. destruct only; [rewrite final_names_only; now apply NoDup_filter|].
  apply NoDup_app_intro; [exact HA|now apply NoDup_filter|].
  intros x Hx Hy. apply filter_In in Hy as [_ Hy]. apply negb_true_iff in Hy.
  apply name_in_In in Hx. congruence.
Qed.

(* the first loop keeps the names A has, the second adds the others B has: together, all of them in order *)
Lemma final_names_split A B only : let F := final_names A B only in
  filter (fun n => name_in n (names A)) F ++ filter (fun n => name_in n (names B) && negb (name_in n (names A))) F = F.
Proof.
  destruct only; cbv zeta.
  - rewrite final_names_only, <- (app_nil_r (filter _ (names A))). apply filter_split; [|intros x []].
    intros x Hx. apply filter_In in Hx as [Hx _]. now apply name_in_In.
  - apply filter_split; [intros x Hx; now apply name_in_In|].
    intros x Hx. apply filter_In in Hx as [H1 H2]. apply negb_true_iff in H2. split; [exact H2|now apply name_in_In].
Qed.

Theorem tg_append_final A B only g' :
  NoDup (names A) -> NoDup (names B) -> tg_append A B only = Ok g' -> names g' = final_names A B only.
Proof.
  intros HA HB. unfold tg_append.
  destruct (tgmin A) as [mn|]; [|discriminate]. destruct (tgmax A) as [ma|]; [|discriminate].
  destruct (tgmax B) as [mb|]; [|discriminate].
  cbv zeta. pose proof (final_names_nodup A B only HA HB) as NDF. pose proof (final_names_split A B only) as S.
  cbv zeta in S. set (final := final_names A B only) in *. intro H. apply bind_ok in H as (g1 & AA & H).
  apply add_all_inv in AA. cbn [tiers app] in AA.
  assert (names g1 = filter (fun n => name_in n (names A)) final) as N1
    by (unfold names at 1; rewrite AA; apply filter_map_find_names).
  rewrite (fold_append_names _ _ _ _ _ _ _ NDF H), N1. etransitivity; [|exact S]. f_equal.
  (* inside final, membership in the first loop's result is membership in A *)
  apply filter_ext_in. intros x Hx. f_equal. f_equal.
  destruct (name_in x (names A)) eqn:XA.
  - apply name_in_In. apply filter_In. split; [exact Hx|exact XA].
  - destruct (name_in x (filter _ final)) eqn:XF; [|reflexivity].
    apply name_in_In, filter_In in XF as [_ XF]. congruence.
Qed.

Lemma fold_append_lookup ma mn mx B : forall final g g', NoDup final ->
  fold_res (append_one ma mn mx B) final g = Ok g' ->
  forall n, (In n final -> appended ma mn mx B (find_tier n (tiers g)) n (find_tier n (tiers g')))
            /\ (~ In n final -> find_tier n (tiers g') = find_tier n (tiers g)).
Proof.
  induction final as [|m rest IH]; intros g g' ND H n; cbn [fold_res] in H.
  - injection H as <-. split; [intros []|reflexivity].
  - apply bind_ok in H as (g2 & A & H). inversion ND as [|? ? NI ND']; subst.
    destruct (append_one_lookup _ _ _ _ _ _ _ A) as [Hm Ho].
    destruct (IH _ _ ND' H n) as [I1 I2]. split.
    + intros [<-|Hin].
      * rewrite (I2 NI). exact Hm.
      * assert (n <> m) as Hne by (intro; subst; contradiction).
        rewrite <- (Ho n Hne). apply I1, Hin.
    + intro Hn. assert (n <> m) as Hne by (intro; subst; apply Hn; now left).
      rewrite I2 by (intro; apply Hn; now right). apply Ho, Hne.
Qed.

Lemma find_filter_map A final n :
  find_tier n (filter_map (fun m => find_tier m (tiers A)) final) = (if name_in n final then find_tier n (tiers A) else None).
Proof.
  induction final as [|m rest IH]; [reflexivity|]. cbn [filter_map name_in existsb]. fold (name_in n rest).
  destruct (text_eqb n m) eqn:E; cbn [orb].
  - apply text_eqb_eq in E. subst m. destruct (find_tier n (tiers A)) as [t|] eqn:F.
    + cbn [find_tier]. now rewrite (proj1 (find_tier_name _ _ _ F)), text_eqb_refl.
    + rewrite IH. now destruct (name_in n rest).
  - destruct (find_tier m (tiers A)) as [t|] eqn:F; [|exact IH]. cbn [find_tier]. rewrite (proj1 (find_tier_name _ _ _ F)).
    assert (text_eqb m n = false) as -> by (apply text_eqb_neq; apply text_eqb_neq in E; congruence). exact IH.
Qed.

Theorem tg_append_tier A B only g' n mn ma mb :
  NoDup (names A) -> NoDup (names B) ->
  tgmin A = Some mn -> tgmax A = Some ma -> tgmax B = Some mb ->
  tg_append A B only = Ok g' -> In n (final_names A B only) ->
  appended ma mn (ma + mb) B (find_tier n (tiers A)) n (find_tier n (tiers g')).
Proof.
  intros HA HB Emn Ema Emb H Hn. unfold tg_append in H. rewrite Emn, Ema, Emb in H. cbv zeta in H.
  pose proof (final_names_nodup A B only HA HB) as NDF. apply bind_ok in H as (g1 & AA & H).
  apply add_all_inv in AA. cbn [tiers app] in AA.
  destruct (fold_append_lookup _ _ _ _ _ _ _ NDF H n) as [I1 _].
  specialize (I1 Hn). rewrite AA, (find_filter_map A _ n) in I1.
  apply name_in_In in Hn. now rewrite Hn in I1.
Qed.
