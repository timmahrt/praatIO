(* Textgrid/TgValidProofs.v -- Textgrid.eraseRegion and Textgrid.insertSpace return valid textgrids: every tier
   well-formed and sharing the textgrid's (new) span, names unique -- what validate() checks (C12). *)
From PraatIO Require Import Tier.CtorProofs Tier.EraseProofs Tier.SpaceProofs Tier.WfProofs
  Textgrid.TgModel Textgrid.TgProofs Textgrid.TgSpliceProofs.
Open Scope Z_scope.

Definition shares (mn mx : Z) (t : tier) : Prop := wf_tier t /\ tmin t = mn /\ tmax t = mx.

Definition tg_valid (mn mx : Z) (g : tg) : Prop :=
  tgmin g = Some mn /\ tgmax g = Some mx /\ NoDup (names g) /\ Forall (shares mn mx) (tiers g).

Lemma erase_p_span t a b s t' : wf_ptier t -> pmin t <= a -> a < b -> b <= pmax t -> erase_p t a b s = Ok t' ->
  wf_ptier t' /\ pmin t' = pmin t /\ pmax t' = (if s then pmax t - (b - a) else pmax t).
Proof.
  intros W Ha Hab Hb H. assert (pmin t <= pmax t) as Hle by lia.
  split; [exact (run_opP_wf t (PErase a b s) t' W H)|].
  unfold erase_p in H. apply bind_ok in H as (t0 & C & H).
  destruct (copy_ptier_same _ _ W Hle C) as (A & B & In0).
  destruct (b <=? a) eqn:E; [lia|]. destruct s; [|now injection H as <-].
  rewrite A, B in H. eapply new_ptier_span; [| |exact H]; [lia|].
  intros p Hp. apply In_filter_map in Hp as (q & Hq & Eq). apply filter_In in Hq as [Hq _]. specialize (In0 q Hq).
  destruct (ptime q <? a) eqn:E1; [injection Eq as <-; lia|].
  destruct (b <? ptime q) eqn:E2; [|discriminate]. injection Eq as <-. destruct q; cbn in *. lia.
Qed.

Lemma erase_tier_shares mn mx t a b s t' : shares mn mx t -> mn <= a -> a < b -> b <= mx ->
  erase_tier t a b s = Ok t' -> tname t' = tname t /\ shares mn (if s then mx - (b - a) else mx) t'.
Proof.
  intros (W & Hmin & Hmax) Ha Hab Hb H. split; [exact (erase_tier_name _ _ _ _ _ H)|]. apply lift_inv in H.
  unfold shares. destruct t as [i|p], t' as [x|x]; try contradiction; cbn [wf_tier tmin tmax] in *.
  - split; [exact (erase_i_wf _ _ _ _ _ _ H)|].
    rewrite (erase_i_ok i a b ETruncate s W Hab) in H by (try lia; discriminate). injection H as <-.
    cbn [imin imax]. destruct s; lia.
  - destruct (erase_p_span p a b s x W) as (Wx & A & B); (try lia; auto). split; [exact Wx|]. destruct s; lia.
Qed.

Lemma space_tier_shares mn mx t s d m t' : shares mn mx t -> mn <= mx -> 0 <= d -> mn <= s ->
  space_tier t s d m = Ok t' -> tname t' = tname t /\ shares mn (mx + d) t'.
Proof.
  intros (W & Hmin & Hmax) Hle Hd Hs H. split; [exact (space_tier_name _ _ _ _ _ H)|]. apply lift_inv in H.
  unfold shares. destruct t as [i|p], t' as [x|x]; try contradiction; cbn [wf_tier tmin tmax] in *.
  - split; [exact (run_opI_wf i (OpSpace s d m) x W I H)|].
    (* in error mode the call returned, so nothing straddles s *)
    assert (m = SError -> forall j, In j (ients i) -> ~ (istart j < s < iend j)) as Herr.
    { intros -> j Hj Hst. unfold space_i in H. cbn [andb] in H.
      assert (existsb (straddlesb s) (ients i) = true) as X
          by (apply existsb_exists; exists j; split; [exact Hj|unfold straddlesb; lia]).
      rewrite X in H. discriminate. }
    rewrite (space_i_ok i s d m W Hd ltac:(lia) Herr) in H. injection H as <-. cbn [imin imax]. lia.
  - destruct (space_p_span_eq p s d x W) as (Wx & A & B); (try lia; auto). split; [exact Wx|lia].
Qed.

Theorem tg_erase_valid mn mx g a b s g' : tg_valid mn mx g -> mn <= a -> a < b -> b <= mx ->
  tg_erase g a b s = Ok g' -> tg_valid mn (if s then mx - (b - a) else mx) g'.
Proof.
  intros (Hn & Hx & ND & F) Ha Hab Hb H. unfold tg_erase in H. destruct (b <=? a); [discriminate|].
  apply bind_ok in H as (l & M & H). apply bind_ok in H as (g2 & AA & [= <-]).
  destruct (mapM_keeps _ _ _ _ _ (fun t t' Pt E => erase_tier_shares mn mx t a b s t' Pt Ha Hab Hb E) F M) as [Nl Fl].
  pose proof (add_all_inv _ _ _ _ AA) as T. cbn [tiers app] in T.
  unfold tg_valid, names. cbn [tgmin tgmax tiers]. rewrite Hx, T, Nl. repeat split; auto.
  - eapply (proj1 (add_all_span _ _ _ _ AA)); [exact Hn|]. eapply Forall_impl; [|exact Fl]. intros t (_ & A & _). lia.
  - now destruct s.
Qed.

Theorem tg_space_valid mn mx g s d m g' : tg_valid mn mx g -> mn <= mx -> 0 <= d -> mn <= s ->
  tg_space g s d m = Ok g' -> tg_valid mn (mx + d) g'.
Proof.
  intros (Hn & Hx & ND & F) Hle Hd Hs H. unfold tg_space in H. apply bind_ok in H as (l & M & H).
  destruct (mapM_keeps _ _ _ _ _ (fun t t' Pt E => space_tier_shares mn mx t s d m t' Pt Hle Hd Hs E) F M) as [Nl Fl].
  pose proof (add_all_inv _ _ _ _ H) as T. cbn [tiers app] in T.
  unfold tg_valid, names. rewrite T, Nl. repeat split; auto.
  - eapply (proj1 (add_all_span _ _ _ _ H)); [exact Hn|]. eapply Forall_impl; [|exact Fl]. intros t (_ & A & _). lia.
  - eapply (proj2 (add_all_span _ _ _ _ H)); [cbn [tgmax]; now rewrite Hx|]. eapply Forall_impl; [|exact Fl]. intros t (_ & _ & A). lia.
Qed.

Lemma NoDup_nodupb l : NoDup l -> nodupb l = true.
Proof.
  induction 1 as [|x l NI _ IH]; [reflexivity|]. cbn [nodupb]. rewrite IH, andb_true_r. apply negb_true_iff.
  destruct (existsb (text_eqb x) l) eqn:E; [|reflexivity].
  apply existsb_exists in E as (y & Hy & Exy). apply text_eqb_eq in Exy. subst. contradiction.
Qed.

Theorem tg_valid_validates mn mx g : tg_valid mn mx g -> tg_validate g = true.
Proof.
  intros (Hn & Hx & ND & F). unfold tg_validate. rewrite (NoDup_nodupb _ ND). cbn [andb].
  apply forallb_forall. intros t Ht. rewrite Forall_forall in F. destruct (F t Ht) as (W & A & B).
  rewrite Hn, Hx, A, B. cbn [option_eqb]. rewrite !Z.eqb_refl. cbn [andb].
  destruct t as [i|p]; cbn [tier_validate wf_tier] in *; [now apply wf_validate|now apply wf_validate_p].
Qed.

(* the premises are satisfiable *)
Example tg_valid_example :
  tg_valid 0 10 (mkTG [TI (mkIT [119%N] [mkI 0 4 [97%N]; mkI 6 10 [98%N]] 0 10); TP (mkPT [112%N] [mkP 3 [120%N]] 0 10)] (Some 0) (Some 10)).
Proof.
  repeat split; try reflexivity.
  - repeat constructor; cbn; intuition discriminate.
  - constructor; [|constructor; [|constructor]].
    + split; [apply wf_itierb_spec; reflexivity|split; reflexivity].
    + split; [apply wf_ptierb_spec; reflexivity|split; reflexivity].
Qed.
