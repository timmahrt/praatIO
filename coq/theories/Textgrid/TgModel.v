(* Textgrid/TgModel.v -- model of praatio.data_classes.textgrid.Textgrid: an
   ordered, uniquely named collection of tiers with a span.  Mutators are step
   machines returning the outcome AND the state the object is left in. *)
From PraatIO Require Export Tier.TierOps.

Inductive tier := TI (t : itier) | TP (t : ptier).

Definition tname (t : tier) : text := match t with TI t => iname t | TP t => pname t end.
Definition tmin (t : tier) : Z := match t with TI t => imin t | TP t => pmin t end.
Definition tmax (t : tier) : Z := match t with TI t => imax t | TP t => pmax t end.

Definition tier_eqb (a b : tier) : bool :=
  match a, b with
  | TI x, TI y => itier_eqb x y
  | TP x, TP y => ptier_eqb x y
  | _, _ => false
  end.

Lemma tier_eqb_eq a b : tier_eqb a b = true <-> a = b.
Proof.
  destruct a, b; simpl; rewrite ?itier_eqb_eq, ?ptier_eqb_eq; split; congruence.
Qed.

Record tg := mkTG { tiers : list tier; tgmin : option Z; tgmax : option Z }.

Definition names (g : tg) : list text := map tname (tiers g).
Definition has_name (g : tg) (n : text) : bool := existsb (fun t => text_eqb (tname t) n) (tiers g).

Fixpoint find_tier (n : text) (l : list tier) : option tier :=
  match l with
  | [] => None
  | t :: l' => if text_eqb (tname t) n then Some t else find_tier n l'
  end.
Definition get_tier (g : tg) (n : text) : option tier := find_tier n (tiers g).

Fixpoint index_of (n : text) (l : list tier) : option nat :=
  match l with
  | [] => None
  | t :: l' => if text_eqb (tname t) n then Some 0%nat
               else match index_of n l' with Some k => Some (S k) | None => None end
  end.

Fixpoint remove_named (n : text) (l : list tier) : list tier :=
  match l with
  | [] => []
  | t :: l' => if text_eqb (tname t) n then l' else t :: remove_named n l'
  end.

Definition tg_eqb (a b : tg) : bool :=
  list_eqb tier_eqb (tiers a) (tiers b)
  && option_eqb Z.eqb (tgmin a) (tgmin b) && option_eqb Z.eqb (tgmax a) (tgmax b).

Lemma tg_eqb_eq a b : tg_eqb a b = true <-> a = b.
Proof.
  destruct a, b; unfold tg_eqb; simpl.
  rewrite !andb_true_iff, (list_eqb_eq _ tier_eqb_eq),
    !(option_eqb_eq _ Z.eqb_eq). split.
  - intros [[-> ->] ->]; reflexivity.
  - intros [= -> -> ->]; auto.
Qed.

(* Textgrid.addTier *)

Definition widens_min (g : tg) (t : tier) : bool :=
  match tgmin g with Some m => tmin t <? m | None => false end.
Definition widens_max (g : tg) (t : tier) : bool :=
  match tgmax g with Some m => m <? tmax t | None => false end.

Definition new_min (g : tg) (t : tier) : option Z :=
  match tgmin g with Some m => Some (Z.min m (tmin t)) | None => Some (tmin t) end.
Definition new_max (g : tg) (t : tier) : option Z :=
  match tgmax g with Some m => Some (Z.max m (tmax t)) | None => Some (tmax t) end.

(* order of the source: name check; span reports (error mode raises here,
   before anything is written); insertion; span update *)
Definition add_step (g : tg) (t : tier) (idx : option Z) (mode : repmode) : res unit * tg :=
  if has_name g (tname t) then (Err TierNameExistsError, g)
  else if (match mode with RError => true | _ => false end) && (widens_min g t || widens_max g t)
  then (Err TextgridStateAutoModified, g)
  else
    let l := match idx with None => tiers g ++ [t] | Some i => py_insert (tiers g) i t end in
    (Ok tt, mkTG l (new_min g t) (new_max g t)).

Definition add_reports (g : tg) (t : tier) (mode : repmode) : bool :=
  match mode with RWarning => negb (has_name g (tname t)) && (widens_min g t || widens_max g t) | _ => false end.

(* Textgrid.removeTier *)

Definition remove_step (g : tg) (n : text) : res tier * tg :=
  match get_tier g n with
  | Some t => (Ok t, mkTG (remove_named n (tiers g)) (tgmin g) (tgmax g))
  | None => (Err PyError, g)
  end.

(* replaceTier: remove, add at the same index; on failure the
   removed tier is put back *)

Definition replace_step (g : tg) (n : text) (t : tier) (mode : repmode) : res unit * tg :=
  match index_of n (tiers g), get_tier g n with
  | Some k, Some old =>
      let g1 := mkTG (remove_named n (tiers g)) (tgmin g) (tgmax g) in
      match add_step g1 t (Some (Z.of_nat k)) mode with
      | (Ok u, g2) => (Ok u, g2)
      | (Err e, g2) =>
          (* rollback: re-insert the old tier where it was *)
          (Err e, snd (add_step g2 old (Some (Z.of_nat k)) RSilence))
      end
  | _, _ => (Err PyError, g)
  end.

(* renameTier: build the renamed tier, then replaceTier *)

Definition rebuild_named (t : tier) (n : text) : res tier :=
  match t with
  | TI t => do t' <- new_itier n (ients t) (Some (imin t)) (Some (imax t)); Ok (TI t')
  | TP t => do t' <- new_ptier n (pents t) (Some (pmin t)) (Some (pmax t)); Ok (TP t')
  end.

Definition rename_step (g : tg) (old new : text) : res unit * tg :=
  match get_tier g old with
  | None => (Err PyError, g)
  | Some t =>
      match rebuild_named t new with
      | Err e => (Err e, g)
      | Ok t' => replace_step g old t' RWarning
      end
  end.

Inductive tgop :=
| TAdd (t : tier) (idx : option Z) (mode : repmode)
| TRemove (n : text)
| TRename (old new : text)
| TReplace (n : text) (t : tier) (mode : repmode).

Definition tg_step (g : tg) (o : tgop) : option err * tg :=
  let to_oe {A} (r : res A) := match r with Ok _ => None | Err e => Some e end in
  match o with
  | TAdd t idx m => let '(r, g') := add_step g t idx m in (to_oe r, g')
  | TRemove n => let '(r, g') := remove_step g n in (to_oe r, g')
  | TRename a b => let '(r, g') := rename_step g a b in (to_oe r, g')
  | TReplace n t m => let '(r, g') := replace_step g n t m in (to_oe r, g')
  end.

Definition tg_run (g : tg) (ops : list tgop) : tg := fold_left (fun g o => snd (tg_step g o)) ops g.

(* an ordered list of tiers, no span, no partial states: what each operation
   does when it succeeds *)
Definition spec_step (l : list tier) (o : tgop) : list tier :=
  match o with
  | TAdd t idx _ => match idx with None => l ++ [t] | Some i => py_insert l i t end
  | TRemove n => remove_named n l
  | TRename a b =>
      match find_tier a l, index_of a l with
      | Some t, Some k =>
          match rebuild_named t b with
          | Ok t' => py_insert (remove_named a l) (Z.of_nat k) t'
          | Err _ => l end
      | _, _ => l end
  | TReplace n t _ =>
      match index_of n l with
      | Some k => py_insert (remove_named n l) (Z.of_nat k) t
      | None => l end
  end.

(* when does the list model reject an operation *)
Definition spec_rejects (l : list tier) (o : tgop) : bool :=
  let has n l := existsb (fun u => text_eqb (tname u) n) l in
  match o with
  | TAdd t _ _ => has (tname t) l
  | TRemove n => negb (has n l)
  | TRename a b => negb (has a l) || has b (remove_named a l)
  | TReplace n t _ => negb (has n l) || has (tname t) (remove_named n l)
  end.

(* Textgrid.validate() *)

Definition tier_validate (t : tier) : bool :=
  match t with TI t => validate_i t | TP t => validate_p t end.

Fixpoint nodupb (l : list text) : bool :=
  match l with
  | [] => true
  | x :: l' => negb (existsb (text_eqb x) l') && nodupb l'
  end.

Definition tg_validate (g : tg) : bool :=
  nodupb (names g)
  && forallb (fun t => option_eqb Z.eqb (tgmin g) (Some (tmin t))
                       && option_eqb Z.eqb (tgmax g) (Some (tmax t))
                       && tier_validate t) (tiers g).

Definition crop_tier (t : tier) a b m r : res tier :=
  match t with TI t => do x <- crop_i t a b m r; Ok (TI x) | TP t => do x <- crop_p t a b r; Ok (TP x) end.
Definition erase_tier (t : tier) a b s : res tier :=
  match t with TI t => do x <- erase_i t a b ETruncate s; Ok (TI x) | TP t => do x <- erase_p t a b s; Ok (TP x) end.
Definition space_tier (t : tier) s d m : res tier :=
  match t with TI t => do x <- space_i t s d m; Ok (TI x) | TP t => do x <- space_p t s d; Ok (TP x) end.

(* add a list of tiers to a fresh textgrid, in order *)
Fixpoint add_all (g : tg) (l : list tier) (mode : repmode) : res tg :=
  match l with
  | [] => Ok g
  | t :: l' => match add_step g t None mode with
               | (Ok _, g') => add_all g' l' mode
               | (Err e, _) => Err e end
  end.

Definition tg_crop (g : tg) (a b : Z) (m : cropmode) (r : bool) : res tg :=
  if b <=? a then Err ArgumentError else
  do l <- mapM (fun t => crop_tier t a b m r) (tiers g);
  add_all (if r then mkTG [] (Some 0) (Some (b - a)) else mkTG [] (Some a) (Some b)) l
          (match m with Lax => RSilence | _ => RWarning end).

Definition tg_erase (g : tg) (a b : Z) (s : bool) : res tg :=
  if b <=? a then Err ArgumentError else
  do l <- mapM (fun t => erase_tier t a b s) (tiers g);
  do g' <- add_all (mkTG [] (tgmin g) (tgmax g)) l RWarning;
  Ok (mkTG (tiers g') (tgmin g')
           (if s then match tgmax g with Some m => Some (m - (b - a)) | None => None end else tgmax g)).

Definition tg_space (g : tg) (s d : Z) (m : spacemode) : res tg :=
  do l <- mapM (fun t => space_tier t s d m) (tiers g);
  add_all (mkTG [] (tgmin g) (match tgmax g with Some x => Some (x + d) | None => None end)) l RWarning.

(* Textgrid.editTimestamps: tier after tier, each added to a textgrid with the old span *)

Definition tents_empty (t : tier) : bool :=
  match t with
  | TI t => match ients t with [] => true | _ => false end
  | TP t => match pents t with [] => true | _ => false end
  end.

Definition edit_tier (t : tier) (o : Z) (m : repmode) : res tier :=
  match t with TI t => do x <- edit_i t o m; Ok (TI x) | TP t => do x <- edit_p t o m; Ok (TP x) end.

(* tiers without entries are carried over unchanged (the source skips them) *)
Definition edit_or_keep (t : tier) (o : Z) (m : repmode) : res tier :=
  if tents_empty t then Ok t else edit_tier t o m.

Fixpoint edit_all (g : tg) (l : list tier) (o : Z) (m : repmode) : res tg :=
  match l with
  | [] => Ok g
  | t :: l' =>
      do t' <- edit_or_keep t o m;
      match add_step g t' None m with
      | (Ok _, g') => edit_all g' l' o m
      | (Err e, _) => Err e
      end
  end.

Definition tg_edit (g : tg) (o : Z) (m : repmode) : res tg :=
  edit_all (mkTG [] (tgmin g) (tgmax g)) (tiers g) o m.

(* Textgrid.appendTextgrid *)

Definition name_in (n : text) (l : list text) : bool := existsb (text_eqb n) l.

(* tier.new(minTimestamp=, maxTimestamp=): same name and entries, requested span *)
Definition respan (t : tier) (mn mx : Z) : res tier :=
  match t with
  | TI t => do x <- new_itier (iname t) (ients t) (Some mn) (Some mx); Ok (TI x)
  | TP t => do x <- new_ptier (pname t) (pents t) (Some mn) (Some mx); Ok (TP x)
  end.

(* tier.new(entries = own entries followed by the other tier's, span): kinds must agree *)
Definition join_entries (a b : tier) (mn mx : Z) : res tier :=
  match a, b with
  | TI a, TI b => do x <- new_itier (iname a) (ients a ++ ients b) (Some mn) (Some mx); Ok (TI x)
  | TP a, TP b => do x <- new_ptier (pname a) (pents a ++ pents b) (Some mn) (Some mx); Ok (TP x)
  | _, _ => Err PyError       (* entries of two kinds in one list: outside the modelled domain *)
  end.

Definition final_names (A B : tg) (only : bool) : list text :=
  let na := names A in let nb := names B in
  let combined := na ++ filter (fun n => negb (name_in n na)) nb in
  if only then filter (fun n => name_in n na && name_in n nb) combined else combined.

Definition append_one (ma mn mx : Z) (B : tg) (g : tg) (n : text) : res tg :=
  match find_tier n (tiers B) with
  | None => Ok g
  | Some tb =>
      do t1 <- respan tb mn mx;
      do t2 <- edit_tier t1 ma RWarning;
      match find_tier n (tiers g) with
      | Some ta =>
          do t3 <- join_entries ta t2 mn mx;
          match replace_step g n t3 RWarning with
          | (Ok _, g') => Ok g'
          | (Err e, _) => Err e
          end
      | None =>
          do t3 <- respan t2 mn mx;
          match add_step g t3 None RWarning with
          | (Ok _, g') => Ok g'
          | (Err e, _) => Err e
          end
      end
  end.

Definition tg_append (A B : tg) (only : bool) : res tg :=
  match tgmin A, tgmax A, tgmax B with
  | Some mn, Some ma, Some mb =>
      let mx := ma + mb in
      let final := final_names A B only in
      do g1 <- add_all (mkTG [] (Some mn) (Some mx))
                       (filter_map (fun n => find_tier n (tiers A)) final) RWarning;
      fold_res (append_one ma mn mx B) final g1
  | _, _, _ => Err PyError
  end.

(* praatio_scripts.alignBoundariesAcrossTiers *)

Definition timestamps_of (t : tier) : list Z :=
  match t with TI t => timestamps_i t | TP t => timestamps_p t end.

Definition dejitter_tier (t : tier) (refs : list Z) (d : Z) : res tier :=
  match t with TI t => do x <- dejitter_i t refs d; Ok (TI x) | TP t => do x <- dejitter_p t refs d; Ok (TP x) end.

(* the guard of the source compares neighbours from the SECOND reference time on: zip(times[1:], times[2:]) *)
Fixpoint too_close (d : Z) (l : list Z) : bool :=
  match l with
  | a :: ((b :: _) as l') => (b - a <? d) || too_close d l'
  | _ => false
  end.

Definition align_one (n : text) (refs : list Z) (d : Z) (g : tg) (t : tier) : res tg :=
  if text_eqb (tname t) n then Ok g else
  do t' <- dejitter_tier t refs d;
  match replace_step g (tname t') t' RWarning with
  | (Ok _, g') => Ok g'
  | (Err e, _) => Err e
  end.

Definition tg_align (g : tg) (n : text) (d : Z) : res tg :=
  match find_tier n (tiers g) with
  | None => Err PyError                                   (* KeyError *)
  | Some ref =>
      let refs := timestamps_of ref in
      if too_close d (tl refs) then Err ArgumentError
      else fold_res (align_one n refs d) (tiers g) g
  end.

(* Textgrid.mergeTiers *)

Definition fold_union_i (l : list itier) : res (option itier) :=
  match l with [] => Ok None | a :: r => do x <- fold_res union_i r a; Ok (Some x) end.
Definition fold_union_p (l : list ptier) : res (option ptier) :=
  match l with [] => Ok None | a :: r => do x <- fold_res union_p r a; Ok (Some x) end.

Definition tg_merge (g : tg) (sel : option (list text)) (keep : bool) : res tg :=
  let sel := match sel with Some l => l | None => names g end in
  do ts <- mapM (fun n => match find_tier n (tiers g) with Some t => Ok t | None => Err PyError end) sel;
  do it <- fold_union_i (filter_map (fun t => match t with TI x => Some x | TP _ => None end) ts);
  do pt <- fold_union_p (filter_map (fun t => match t with TP x => Some x | TI _ => None end) ts);
  let others := if keep then filter (fun t => negb (name_in (tname t) sel)) (tiers g) else [] in
  add_all (mkTG [] (tgmin g) (tgmax g))
          (others ++ match it with Some x => [TI x] | None => [] end ++ match pt with Some x => [TP x] | None => [] end)
          RWarning.
