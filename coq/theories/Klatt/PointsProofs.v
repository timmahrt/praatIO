(* Klatt/PointsProofs.v -- the point rows written for a KlattGrid tier are read back as the
   same (time, value) tokens; slicing into sections loses nothing; the short text form of
   point objects round-trips (C19). *)
From Coq Require Import String.
From PraatIO Require Import Klatt.PointsModel IO.CodecProofs.

Definition noeq (l : text) : bool := forallb (fun c => negb (c =? 61)%N) l.
Definition nonl (l : text) : bool := forallb (fun c => negb (c =? 10)%N) l.

Lemma noeq_app a b : noeq (a ++ b) = noeq a && noeq b.
Proof. unfold noeq. apply forallb_app. Qed.
Lemma nonl_app a b : nonl (a ++ b) = nonl a && nonl b.
Proof. unfold nonl. apply forallb_app. Qed.

Lemma after_eq_none l : noeq l = true -> after_eq l = None.
Proof.
  induction l as [|c l IH]; simpl; [reflexivity|]. intro H. apply andb_prop in H as [Hc Hl].
  apply negb_true_iff in Hc. now rewrite Hc, IH.
Qed.

Lemma after_eq_pref pre rest : noeq pre = true -> after_eq (pre ++ 61%N :: rest) = Some rest.
Proof.
  induction pre as [|c pre IH]; simpl; [reflexivity|]. intro H. apply andb_prop in H as [Hc Hl].
  apply negb_true_iff in Hc. now rewrite Hc, IH.
Qed.

Lemma upto_nl_pref tok rest : nonl tok = true -> upto_nl (tok ++ 10%N :: rest) = Some (tok, 10%N :: rest).
Proof.
  induction tok as [|c tok IH]; simpl; [reflexivity|]. intro H. apply andb_prop in H as [Hc Hl].
  apply negb_true_iff in Hc. now rewrite Hc, IH.
Qed.

Lemma nat_to_text_ok n : noeq (nat_to_text n) = true /\ nonl (nat_to_text n) = true.
Proof. split; refine (forallb_impl _ _ _ _ (nat_to_text_digits n)); unfold IoModel.isdigit; lia. Qed.

(* a token as repr() writes it: no '=', no newline, no surrounding white space *)
Definition tok_ok (t : text) : Prop := noeq t = true /\ nonl t = true /\ strip t = t.

(* the reader on one row: only the places of '=' and of the line ends matter *)
Lemma process_row f a t b v r : noeq a = true -> nonl t = true -> noeq b = true -> nonl v = true ->
  process_points (S f) (a ++ 61%N :: t ++ 10%N :: b ++ 61%N :: v ++ 10%N :: r)
  = (do rest <- process_points f (10%N :: r); Ok ((strip t, strip v) :: rest)).
Proof.
  intros A Ht B Hv. cbn [process_points]. rewrite (after_eq_pref _ _ A), (upto_nl_pref _ _ Ht).
  change (10%N :: b ++ 61%N :: v ++ 10%N :: r) with ((10%N :: b) ++ 61%N :: v ++ 10%N :: r).
  rewrite (after_eq_pref (10%N :: b)) by exact B. now rewrite (upto_nl_pref _ _ Hv).
Qed.

(* a printed row, with its key words as variables, cut at the two '=' *)
Lemma row_shape (pre i k1 n k2 kn t kv v rest post : text) :
  pre ++ (i ++ k1 ++ n ++ k2 ++ [10%N] ++ i ++ (kn ++ [61%N; 32%N]) ++ t ++ [10%N]
          ++ i ++ (kv ++ [61%N; 32%N]) ++ v ++ [10%N] ++ rest) ++ post
  = (pre ++ i ++ k1 ++ n ++ k2 ++ [10%N] ++ i ++ kn) ++ 61%N :: (32%N :: t) ++ 10%N :: (i ++ kv) ++ 61%N :: (32%N :: v) ++ 10%N :: rest ++ post.
Proof. repeat (rewrite <- app_assoc; cbn [app]). reflexivity. Qed.

(* _processSectionData on the rows getAsText writes: the same tokens, for any number of points *)
Theorem process_printed indent pts : noeq indent = true -> Forall (fun p => tok_ok (fst p) /\ tok_ok (snd p)) pts ->
  forall k pre post fuel, noeq pre = true -> noeq post = true -> (length pts < fuel)%nat ->
  process_points fuel (pre ++ print_points indent k pts ++ post) = Ok pts.
Proof.
  intros HI HP. induction HP as [|[t v] pts ((T1 & T2 & T3) & (V1 & V2 & V3)) _ IH]; intros k pre post [|f] Hpre Hpost Hf;
    try (simpl in Hf; lia).
  - cbn [print_points app process_points]. now rewrite after_eq_none by (now rewrite noeq_app, Hpre, Hpost).
  - cbn [fst snd print_points] in *.
    change (T "    number = ") with (T "    number " ++ [61%N; 32%N]). change (T "    value = ") with (T "    value " ++ [61%N; 32%N]).
    destruct (nat_to_text_ok k) as [K1 _].
    rewrite row_shape, process_row; [|now rewrite !noeq_app, Hpre, HI, K1|exact T2|now rewrite noeq_app, HI|exact V2].
    change (10%N :: print_points indent (S k) pts ++ post) with ([10%N] ++ print_points indent (S k) pts ++ post).
    rewrite (IH (S k) [10%N] post f); [|reflexivity|exact Hpost|simpl in Hf; lia].
    cbn [bind]. change (strip (32%N :: ?x)) with (strip x). now rewrite T3, V3.
Qed.

Lemma print_points_length indent pts : forall k, (length pts <= length (print_points indent k pts))%nat.
Proof.
  induction pts as [|[t v] pts IH]; intro k; [apply Nat.le_0_l|].
  cbn [print_points length]. specialize (IH (S k)).
  (* the key words play no part *)
  generalize (T "points [") (T "]:") (T "    number = ") (T "    value = ") (nat_to_text k). intros.
  rewrite !app_length. cbn [length]. lia.
Qed.

(* the block as the reader receives it (the section is stripped, the final newline re-added) *)
Theorem process_section_printed indent pts : noeq indent = true -> Forall (fun p => tok_ok (fst p) /\ tok_ok (snd p)) pts ->
  process_section (print_points indent 1 pts) = Ok pts.
Proof.
  intros HI HP. unfold process_section.
  pose proof (process_printed indent pts HI HP 1%nat [] [10%N] (S (length (print_points indent 1 pts ++ [10%N])))) as H.
  simpl app in H. apply H; try reflexivity.
  rewrite app_length. pose proof (print_points_length indent pts 1). simpl. lia.
Qed.

Fixpoint ascending (l : list nat) : Prop :=
  match l with a :: rest => match rest with b :: _ => (a <= b)%nat /\ ascending rest | [] => True end | [] => True end.

Lemma slice_nat_app {A} (l : list A) a b c : (a <= b)%nat -> (b <= c)%nat ->
  slice_nat l a b ++ slice_nat l b c = slice_nat l a c.
Proof.
  intros H1 H2. unfold slice_nat.
  replace (c - a)%nat with ((b - a) + (c - b))%nat by lia.
  rewrite firstn_add, skipn_skipn. replace (b - a + a)%nat with b by lia. reflexivity.
Qed.

Theorem sections_lossless {A} (data : list A) idxs : forall a,
  ascending (a :: idxs) ->
  concat (sections data (a :: idxs)) = slice_nat data a (last idxs a) /\ (a <= last idxs a)%nat.
Proof.
  induction idxs as [|b idxs IH]; intros a Asc.
  - simpl. unfold slice_nat. rewrite Nat.sub_diag. split; [reflexivity|lia].
  - destruct Asc as [Hab Asc]. destruct (IH b Asc) as (E & L).
    change (sections data (a :: b :: idxs)) with (slice_nat data a b :: sections data (b :: idxs)).
    cbn [concat]. rewrite E. rewrite (last_cons b idxs a). split; [|lia].
    apply slice_nat_app; assumption.
Qed.

Lemma split_nl_lines vals : Forall (fun v => nonl v = true) vals ->
  split_nl (flat_map (fun v => v ++ [10%N]) vals) = vals ++ [[]].
Proof.
  induction 1 as [|v vals Hv _ IH]; [reflexivity|].
  simpl. rewrite <- app_assoc. simpl. rewrite (split_nl_line _ _ Hv), IH. reflexivity.
Qed.

(* "\n".join(vals) + "\n" for a non-empty list = every value followed by a newline *)
Lemma join_nl_lines vals : vals <> [] -> join [10%N] vals ++ [10%N] = flat_map (fun v => v ++ [10%N]) vals.
Proof.
  induction vals as [|v vals IH]; [congruence|]. intros _.
  destruct vals as [|w vals']; [simpl; now rewrite app_nil_r|].
  change (join [10%N] (v :: w :: vals')) with (v ++ [10%N] ++ join [10%N] (w :: vals')).
  change (flat_map (fun v0 : list N => v0 ++ [10%N]) (v :: w :: vals'))
    with ((v ++ [10%N]) ++ flat_map (fun v0 : list N => v0 ++ [10%N]) (w :: vals')).
  rewrite <- IH by discriminate. now rewrite <- !app_assoc.
Qed.

Lemma split_first_step k line rest : nonl line = true ->
  split_first (S k) (line ++ [10%N] ++ rest) = line :: split_first k rest.
Proof. intro H. cbn [split_first]. change ([10%N] ++ rest) with (10%N :: rest). now rewrite (take_line_app _ _ H). Qed.

Lemma header_split_gen (l1 l2 mn mx cnt body : text) :
  nonl l1 = true -> nonl l2 = true -> nonl mn = true -> nonl mx = true -> nonl cnt = true ->
  split_first 6 (l1 ++ [10%N] ++ l2 ++ [10%N] ++ [10%N] ++ mn ++ [10%N] ++ mx ++ [10%N] ++ cnt ++ [10%N] ++ body)
  = [l1; l2; []; mn; mx; cnt; body].
Proof.
  intros H1 H2 A B C. rewrite (split_first_step _ _ _ H1), (split_first_step _ _ _ H2).
  change (split_first 4 ([10%N] ++ ?r)) with (split_first 4 ([] ++ [10%N] ++ r)).
  now rewrite (split_first_step 3 [] _ eq_refl), (split_first_step _ _ _ A), (split_first_step _ _ _ B), (split_first_step _ _ _ C).
Qed.

Lemma header_split cls mn mx n body : nonl cls = true -> nonl mn = true -> nonl mx = true ->
  split_first 6 (po_header cls mn mx n ++ [10%N] ++ body)
  = [T "File type = ""ooTextFile"""; T "Object class = """ ++ cls ++ T """"; []; mn; mx; nat_to_text n; body].
Proof.
  intros C A B. unfold po_header. destruct (nat_to_text_ok n) as [_ Dn].
  assert (nonl (T "Object class = """ ++ cls ++ T """") = true) as OC by (rewrite !nonl_app, C; reflexivity).
  assert (nonl (T "File type = ""ooTextFile""") = true) as FT by reflexivity.
  etransitivity; [|exact (header_split_gen _ _ _ _ _ body FT OC A B Dn)]. clear.
  f_equal. generalize (T "File type = ""ooTextFile""") (T "Object class = """) (T """"). intros. now rewrite <- !app_assoc.
Qed.

Lemma filter_nonblank_lines vals : Forall (fun v => nonblank v = true) vals -> filter nonblank (vals ++ [[]]) = vals.
Proof.
  induction 1 as [|v vals Hv _ IH]; [reflexivity|]. simpl. now rewrite Hv, IH.
Qed.

(* 1D (PointProcess): class, span and point list come back exactly *)
Theorem po_roundtrip_1d cls mn mx n vals :
  nonl cls = true -> nonl mn = true -> nonl mx = true ->
  Forall (fun v => nonl v = true) vals -> Forall (fun v => nonblank v = true) vals ->
  po_open_1d (po_save cls mn mx n vals) = Ok (mn, mx, vals).
Proof.
  intros C A B NL NB. unfold po_open_1d, po_save, po_short_header.
  rewrite header_split by assumption. cbn [bind]. f_equal. f_equal.
  destruct vals as [|v vals']; [reflexivity|].
  rewrite join_nl_lines by discriminate. rewrite (split_nl_lines _ NL). apply filter_nonblank_lines, NB.
Qed.

Fixpoint flatten_pairs (ps : list (text * text)) : list text :=
  match ps with [] => [] | (a, b) :: r => a :: b :: flatten_pairs r end.

Lemma pairs_from_flat ps : Forall (fun p => nonblank (fst p) = true) ps -> pairs_from (flatten_pairs ps ++ [[]]) = Ok ps.
Proof.
  induction 1 as [|[a b] ps Ha _ IH]; [reflexivity|]. simpl in *. rewrite Ha, IH. reflexivity.
Qed.

Theorem po_roundtrip_2d cls mn mx n ps :
  nonl cls = true -> nonl mn = true -> nonl mx = true ->
  Forall (fun p => nonl (fst p) = true /\ nonl (snd p) = true /\ nonblank (fst p) = true) ps ->
  po_open_2d (po_save cls mn mx n (flatten_pairs ps)) = Ok (mn, mx, ps).
Proof.
  intros C A B H. unfold po_open_2d, po_save, po_short_header.
  rewrite header_split by assumption. cbn [bind].
  assert (Forall (fun v => nonl v = true) (flatten_pairs ps)) as NL.
  { induction H as [|[a b] ps (H1 & H2 & _) _ IH]; simpl; [constructor|]. repeat constructor; assumption. }
  assert (Forall (fun p => nonblank (fst p) = true) ps) as NB by (eapply Forall_impl; [|exact H]; simpl; tauto).
  destruct ps as [|[a b] ps'].
  - reflexivity.
  - rewrite join_nl_lines by discriminate. rewrite (split_nl_lines _ NL).
    rewrite (pairs_from_flat _ NB). reflexivity.
Qed.
